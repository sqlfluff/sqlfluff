(* C32 — Linting is read-only and repeatable.
   PARTIAL: the process state that survives from one operation to the next consists of memo tables (the @cache'd config loaders, the
   per-parse grammar caches) and the lexer's class-level block tracker.  Proved: a memo table over a function of its key is
   transparent for EVERY history of requests (C32_memoised_state_transparent, the cache theorem of C06 read for histories), and
   not otherwise (C32_refuted): so repeatability reduces to "what is memoised depends only on its key" -- for the config loaders
   that is "files do not change between operations", which is the read-only half of the property.  Both halves are checked on
   real histories: sequences of lint/parse/render over a file pool in one process vs a fresh process per file, and file-system
   snapshots (bytes, mtimes, directory listing, write-mode opens) around lint/parse/render through the API and the CLI. *)
From SF Require Import Base.Prelude Model.ParseOpt Proofs.ParseOptP.

Theorem C32_memoised_state_transparent : forall (K C V : Type) keq (f : K -> C -> V),
  (forall a b, keq a b = true <-> a = b) ->
  forall history, key_determines K C V f history ->
  run_cached K C V keq f [] history = run_fresh K C V f history.
Proof.
  intros K C V keq f Hk history Hd. apply cache_transparent; [exact Hk| |exact Hd].
  intros k c v _ H. discriminate H.
Qed.
Print Assumptions C32_memoised_state_transparent.

Theorem C32_refuted : exists (f : nat -> nat -> nat) history,
  run_cached nat nat nat Nat.eqb f [] history <> run_fresh nat nat nat f history.
Proof. do 2 eexists. exact cache_not_transparent_example. Qed.
Print Assumptions C32_refuted.
