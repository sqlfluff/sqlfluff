(* C11 — Fixing preserves all untouched text.  The property theorems, from fix_source_frame (Proofs/FrameP.v), apply_exact_lemma (Proofs/PatchP.v) and
   the normalisation lemmas of Proofs/JinjaFastP.v.
   PARTIAL: proved for the patch-application layer: the fixed source equals the source with the applied patches substituted for
   exactly their own ranges (C30_apply_exact), hence any ascending list of ranges no applied patch overlaps is copied verbatim and in
   order (C11_untouched_ranges_survive), no patches means the text is returned unchanged (C11_no_patches_identity), and the
   newline normalisation applied on reading is idempotent and the identity on LF-only text (C11_newlines).  Bytes <-> text (codecs,
   BOMs, undecodable bytes) and the decision to rewrite a file are exercised end to end, not modelled. *)
From SF Require Import Base.Prelude Model.Patch Proofs.PatchP Proofs.FrameP Model.JinjaFast Proofs.JinjaFastP.

Theorem C11_untouched_ranges_survive : forall (bufs : list (list patch)) (src : text) (rs : list (nat * nat)),
  Forall (fun p => p_start p <= p_stop p /\ p_stop p <= length src) (concat bufs) ->
  ranges_ok 0 rs ->
  Forall (fun ab => Forall (avoids (fst ab) (snd ab)) (applied_from 0 (merge bufs))) rs ->
  in_order (map (fun ab => substr src (fst ab) (snd ab)) rs) (fix_source (merge bufs) [] src).
Proof. exact fix_source_frame. Qed.
Print Assumptions C11_untouched_ranges_survive.

Theorem C11_no_patches_identity : forall src : text, fix_source (merge []) [] src = src.
Proof.
  intros src. destruct (apply_exact_lemma [] src (Forall_nil _)) as [E _]. rewrite E. reflexivity.
Qed.
Print Assumptions C11_no_patches_identity.

Theorem C11_newlines : forall s,
  (has_cr s = false -> normalise_newlines s = s) /\ normalise_newlines (normalise_newlines s) = normalise_newlines s.
Proof. intros s. split; [apply normalise_id_without_cr|apply normalise_idempotent]. Qed.
Print Assumptions C11_newlines.
