(* C34 — Oversized files are skipped, never parsed or modified.  The property theorems; each is immediate from the definitions
   of Model/Runner.v. *)
From SF Require Import Base.Prelude Model.Gate Model.Runner.

Theorem C34_byte_skip_spec : forall limit size, byte_skip limit size = true <-> 0 < limit /\ limit < size.
Proof. intros. unfold byte_skip. rewrite andb_true_iff, !Nat.ltb_lt. reflexivity. Qed.
Print Assumptions C34_byte_skip_spec.

(* a file over the byte limit yields no LintedFile: nothing is parsed, linted or written for it, and it is counted *)
Theorem C34_byte_skipped_not_processed : forall bl cl path size chars lint,
  byte_skip bl size = true -> process_file bl cl path size chars lint = OSkipped path.
Proof. intros bl cl path size chars lint H. unfold process_file. rewrite H. reflexivity. Qed.
Print Assumptions C34_byte_skipped_not_processed.

(* a file over the character limit is never linted or written either ... *)
Theorem C34_char_skipped_never_linted_or_written : forall bl cl path size chars lint,
  char_skip cl chars = true ->
  match process_file bl cl path size chars lint with
  | OLinted _ v w => v = [] /\ w = None
  | OSkipped _ => True
  | OFailed _ => False
  end.
Proof. intros bl cl path size chars lint H. unfold process_file. destruct (byte_skip bl size); [exact I|]. rewrite H. split; reflexivity. Qed.
Print Assumptions C34_char_skipped_never_linted_or_written.

(* ... but it is not counted as skipped (F7, open finding: the SkipFile is swallowed in render_string) *)
Theorem C34_char_skip_counted_refuted :
  exists bl cl path size chars lint,
    char_skip cl chars = true /\ process_file bl cl path size chars lint <> process_file_spec bl cl path size chars lint.
Proof. exists 0, 3, 7, 10, 10, ([], None). split; [reflexivity|discriminate]. Qed.
Print Assumptions C34_char_skip_counted_refuted.

Theorem C34_within_limits_processed : forall bl cl path size chars lint,
  byte_skip bl size = false -> char_skip cl chars = false ->
  process_file bl cl path size chars lint = OLinted path (fst lint) (snd lint).
Proof. intros bl cl path size chars lint H1 H2. unfold process_file. rewrite H1, H2. reflexivity. Qed.
Print Assumptions C34_within_limits_processed.

(* skipped files fail the run only with large_file_skip_fail *)
Theorem C34_skip_fail_exit : forall a, agg_lint_exit a true = b2e ((0 <? a_viol a) || (0 <? a_skipped a)).
Proof. intros a. unfold agg_lint_exit. rewrite andb_true_r. reflexivity. Qed.
Print Assumptions C34_skip_fail_exit.
Theorem C34_skip_nofail_exit : forall a, agg_lint_exit a false = b2e (0 <? a_viol a).
Proof. intros a. unfold agg_lint_exit. rewrite andb_false_r, orb_false_r. reflexivity. Qed.
Print Assumptions C34_skip_nofail_exit.
