(* C30 — Edits are applied to disjoint source ranges exactly once. *)
From SF Require Import Base.Prelude Base.Sort Model.Patch Proofs.PatchP.

(* The merged patch list (all rules, all variants) is sorted by (start, stop), drawn from the input buffers,
   and no two of its patches conflict. *)
Theorem C30_merge_pairwise_ok : forall bufs : list (list patch),
  StronglySorted (le key_leb) (merge bufs) /\
  ForallOrdPairs (fun a b => conflict a b = false) (merge bufs) /\
  (forall m, In m (merge bufs) -> In m (concat bufs)).
Proof. exact merge_ok. Qed.
Print Assumptions C30_merge_pairwise_ok.

(* "does not conflict" means: identical edit, or ranges that do not overlap *)
Theorem C30_noconflict_meaning : forall a b : patch, conflict a b = false ->
  (p_start a = p_start b /\ p_stop a = p_stop b /\ p_text a = p_text b)
  \/ Nat.min (p_stop a) (p_stop b) <= Nat.max (p_start a) (p_start b).
Proof. exact noconf_meaning. Qed.
Print Assumptions C30_noconflict_meaning.

(* The fixed source is the source with each *applied* patch substituted for exactly its own range; the applied
   patches are an ascending chain of disjoint ranges (chain), each one a merged patch; every other merged patch
   contributes nothing.  (No source-only slices here; C10 treats those.) *)
Theorem C30_apply_exact : forall (bufs : list (list patch)) (src : text),
  Forall (fun p => p_start p <= p_stop p /\ p_stop p <= length src) (concat bufs) ->
  let ps := merge bufs in
  let applied := applied_from 0 ps in
  fix_source ps [] src = splice_from 0 src applied
  /\ chain 0 applied
  /\ (forall p, In p applied -> In p ps)
  /\ ForallOrdPairs (fun a b => conflict a b = false) ps.
Proof. intros bufs src H. apply apply_exact_lemma. revert H. apply Forall_impl. intros p H. exact (proj1 H). Qed.
Print Assumptions C30_apply_exact.
