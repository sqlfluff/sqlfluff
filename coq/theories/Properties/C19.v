(* C19 — All entry points agree (decision layer).  The property theorems, from the gate and the stdin/paths exit comparison of
   Proofs/GateP.v. *)
From SF Require Import Base.Prelude Model.Gate Proofs.GateP.

(* write / no-write decision: stdin = paths, API = "fixes not discarded" *)
Theorem C19_write_decision_stdin_eq_paths : forall f feu, snd (stdin_fix f feu) = paths_written f feu true.
Proof.
  intros f feu. unfold stdin_fix, paths_written. cbn [snd]. rewrite <- gate_agreement, andb_true_r. reflexivity.
Qed.
Print Assumptions C19_write_decision_stdin_eq_paths.

Theorem C19_api_gate_eq : forall f feu, api_should_fix f feu = negb (fixes_discarded f feu).
Proof. exact gate_agreement. Qed.
Print Assumptions C19_api_gate_eq.

(* exit status: stdin = paths whenever no unsuppressed fixable violation has its fix discarded *)
Theorem C19_exit_agreement_partial : forall f feu,
  (fixes_discarded f feu = true -> existsb (fun v => fixable v && visible v) f = false) ->
  fst (stdin_fix f feu) = paths_fix_exit [f] feu 0 false.
Proof. exact stdin_exit_agrees. Qed.
Print Assumptions C19_exit_agreement_partial.

(* ... and they do disagree otherwise (F6, open finding) *)
Theorem C19_exit_agreement_refuted :
  exists f, fst (stdin_fix f false) = 0 /\ paths_fix_exit [f] false 0 false = 1.
Proof. exists [mkVS KPrs false true false; mkVS KLint true false false]. split; reflexivity. Qed.
Print Assumptions C19_exit_agreement_refuted.

(* regression witness of the repaired defect F18: stdin did not apply warning-level fixes *)
Theorem C19_f18_stdin_warning_fixes_refuted :
  exists f, stdin_use_fixed_f18 f false = false /\ paths_written f false true = true.
Proof. exists [mkVS KLint true false true]. split; reflexivity. Qed.
Print Assumptions C19_f18_stdin_warning_fixes_refuted.
