(* C08 — Jinja rendering fidelity.  The property theorems, from data_prefix_spec and the normalisation lemmas of Proofs/JinjaFastP.v.
   PARTIAL: Jinja is an oracle.  Proved: the fast-path condition -- a text without `{{`, `{%`, `{#` is a single data token of
   Jinja's root lexer state and renders to itself (keep_trailing_newline), and any marker ends the data token early, so the
   condition is exact (C08_fast_path_... theorems); and render_string's newline normalisation yields CR-free text, is the identity on
   CR-free text and idempotent, which is the "LF-only" hypothesis.  That sqlfluff's primary rendering equals what Jinja renders
   (slow path, whitespace control, undefined variables) is validated against the real Jinja on every run. *)
From SF Require Import Base.Prelude Model.JinjaFast Proofs.JinjaFastP.

Theorem C08_fast_path_sound : forall s,
  has_marker s = false -> render_data true (fst (data_prefix s)) = s /\ snd (data_prefix s) = [].
Proof. exact fast_path_sound. Qed.
Print Assumptions C08_fast_path_sound.

Theorem C08_fast_path_exact : forall s,
  has_marker s = true -> exists d rest, data_prefix s = (d, rest) /\ rest <> [] /\ s = d ++ rest.
Proof.
  intros s H. destruct (data_prefix_spec s) as [E1 E2]. rewrite H in E2. destruct (data_prefix s) as [d rest].
  exists d, rest. split; [reflexivity|]. split; assumption.
Qed.
Print Assumptions C08_fast_path_exact.

Theorem C08_newlines_normalised : forall s,
  has_cr (normalise_newlines s) = false
  /\ (has_cr s = false -> normalise_newlines s = s)
  /\ normalise_newlines (normalise_newlines s) = normalise_newlines s.
Proof. intros s. split; [apply normalise_no_cr|]. split; [apply normalise_id_without_cr|apply normalise_idempotent]. Qed.
Print Assumptions C08_newlines_normalised.

(* "{ {" and "}}" and a lone trailing "{" are not markers; "{#" is *)
Example C08_examples : has_marker [123;32;123;125;125;123]%N = false /\ has_marker [97;123;35]%N = true.
Proof. split; reflexivity. Qed.
