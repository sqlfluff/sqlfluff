(* C28 — Parse output is a faithful serialisation of the tree.
   Model: Model/Record.v (to_tuple, structural_simplify, as_record, raw, raw_segments, stringify). *)
From SF Require Import Base.Prelude Model.Record Proofs.RecordP.
From Coq Require Import Permutation.

(* structural_simplify: tuple form -> record (dict / list of single dicts / None), any tuple, with or without positions *)

(* The (type, text) entries of the record, read in order, are those of the tuple form. *)
Theorem C28_simplify_leaves : forall t : tup, leaves_rec (simplify t) = leaves_tup t.
Proof. exact simplify_leaves. Qed.
Print Assumptions C28_simplify_leaves.

(* Each entry keeps the path of enclosing node types it has in the tuple form. *)
Theorem C28_simplify_nesting : forall t : tup, paths_rec (simplify t) = paths_tup t.
Proof. exact simplify_nesting. Qed.
Print Assumptions C28_simplify_nesting.

(* Stronger: the record determines the whole tuple form up to the position dicts (empty containers included). *)
Theorem C28_simplify_lossless : forall t : tup, untuple (simplify t) = [erase_pos t].
Proof. exact simplify_lossless. Qed.
Print Assumptions C28_simplify_lossless.

(* None of structural_simplify's asserts can fire on a tuple produced by to_tuple. *)
Theorem C28_simplify_asserts_hold : forall t : tup, simplify_pv (embed t) = Ok (simplify t).
Proof. exact simplify_pv_embed. Qed.
Print Assumptions C28_simplify_asserts_hold.

(* to_tuple(show_raw=True) and raw / raw_segments *)

(* Without code_only (and without metas) the token texts concatenate to the tree's raw. *)
Theorem C28_to_tuple_concat : forall (ip : bool) (s : seg), is_meta s = false ->
  texts (leaves_tup (to_tuple false true false ip s)) = raw_of s.
Proof. exact to_tuple_concat. Qed.
Print Assumptions C28_to_tuple_concat.

(* With --include-meta the same holds for the entries whose type is not a meta type (placeholders show template source). *)
Theorem C28_to_tuple_concat_meta : forall (mt : text -> bool) (im ip : bool) (s : seg),
  meta_typed mt s = true -> is_meta s = false ->
  texts (filter (fun t : tok => negb (mt (fst t))) (leaves_tup (to_tuple false true im ip s))) = raw_of s.
Proof. exact to_tuple_concat_meta. Qed.
Print Assumptions C28_to_tuple_concat_meta.

(* Every raw segment (every non-meta one when include_meta is off) is listed once, in file order, with its type ... *)
Theorem C28_to_tuple_tokens : forall (im ip : bool) (s : seg), nonempty_nodes s = true -> is_node s = true ->
  leaves_tup (to_tuple false true im ip s) = map shown_tok (filter (fun r => im || negb (is_meta r)) (raw_segments s)).
Proof. intros im ip s Hne Hn. apply (to_tuple_leaves false im ip s Hne), vis_node, Hn. Qed.
Print Assumptions C28_to_tuple_tokens.

(* ... and under the path of node types it has in the parse tree. *)
Theorem C28_to_tuple_nesting : forall (im ip : bool) (s : seg), nonempty_nodes s = true ->
  paths_tup (to_tuple false true im ip s)
  = map (fun pr => (fst pr, shown_text (snd pr)))
        (filter (fun pr => negb (is_node s) || im || negb (is_meta (snd pr))) (paths_seg s)).
Proof.
  intros im ip s Hne. destruct (is_node s) eqn:Es.
  - apply (to_tuple_paths im ip s Hne), vis_node, Es.
  - destruct s as [|ty [src|] pos|]; try discriminate; reflexivity.
Qed.
Print Assumptions C28_to_tuple_nesting.

(* code_only lists exactly the code raw segments. *)
Theorem C28_to_tuple_tokens_code_only : forall (im ip : bool) (s : seg), is_code s = true ->
  leaves_tup (to_tuple true true im ip s) = map seg_tok (filter is_code (raw_segments s)).
Proof.
  intros im ip s H. rewrite (to_tuple_leaves true im ip s H), (filter_ext _ _ (vis_code im)) by (rewrite vis_code; exact H).
  apply map_ext_in. intros r Hr. apply filter_In in Hr as [_ Hr]. destruct r; try discriminate; reflexivity.
Qed.
Print Assumptions C28_to_tuple_tokens_code_only.

(* raw is the concatenation of the raw segments' raws (get_raw_segments is a faithful flattening) *)
Theorem C28_raw_segments_concat : forall s : seg, concat (map raw_of (raw_segments s)) = raw_of s.
Proof.
  induction s as [| |ty csep cmt pos segs IH] using seg_ind'; [cbn; apply app_nil_r|reflexivity|].
  cbn [raw_segments raw_of]. rewrite <- !flat_map_concat_map, flat_map_flat_map. apply flat_map_ext_in.
  intros c Hc. rewrite flat_map_concat_map. apply IH, Hc.
Qed.
Print Assumptions C28_raw_segments_concat.

(* as_record = structural_simplify . to_tuple: the JSON / YAML / API record *)

Theorem C28_as_record_concat : forall (ip : bool) (s : seg), is_meta s = false ->
  texts (leaves_rec (as_record false true false ip s)) = raw_of s.
Proof. intros ip s. unfold as_record. rewrite simplify_leaves. apply to_tuple_concat. Qed.
Print Assumptions C28_as_record_concat.

Theorem C28_as_record_tokens : forall (im ip : bool) (s : seg), nonempty_nodes s = true -> is_node s = true ->
  leaves_rec (as_record false true im ip s) = map shown_tok (filter (fun r => im || negb (is_meta r)) (raw_segments s)).
Proof. intros im ip s. unfold as_record. rewrite simplify_leaves. apply C28_to_tuple_tokens. Qed.
Print Assumptions C28_as_record_tokens.

Theorem C28_as_record_nesting : forall (im ip : bool) (s : seg), nonempty_nodes s = true ->
  paths_rec (as_record false true im ip s)
  = map (fun pr => (fst pr, shown_text (snd pr)))
        (filter (fun pr => negb (is_node s) || im || negb (is_meta (snd pr))) (paths_seg s)).
Proof. intros im ip s. unfold as_record. rewrite simplify_nesting. apply C28_to_tuple_nesting. Qed.
Print Assumptions C28_as_record_nesting.

Theorem C28_as_record_tokens_code_only : forall (im ip : bool) (s : seg), is_code s = true ->
  leaves_rec (as_record true true im ip s) = map seg_tok (filter is_code (raw_segments s)).
Proof. intros im ip s. unfold as_record. rewrite simplify_leaves. apply C28_to_tuple_tokens_code_only. Qed.
Print Assumptions C28_as_record_tokens_code_only.

(* "Every token in file order" is FALSE of the human format: under a comment_separate node (UnparsableSegment) the
   comments are printed first.  Witness: unparsable[word 'x', inline_comment '--'] prints the comment before the word. *)
Theorem C28_human_file_order_refuted :
  exists (s : seg) (i : nat), hleaves (stringify i false s) <> map seg_tok (filter nonmeta (raw_segments s)).
Proof. exists reorder_witness, 0. vm_compute. discriminate. Qed.
Print Assumptions C28_human_file_order_refuted.

(* What does hold (weaker: a permutation, not the order): every non-meta raw segment is printed exactly once ... *)
Theorem C28_human_every_token_once_partial : forall (s : seg) (i : nat),
  Permutation (hleaves (stringify i false s)) (map seg_tok (filter nonmeta (raw_segments s))).
Proof. exact stringify_perm. Qed.
Print Assumptions C28_human_every_token_once_partial.

(* ... and in file order when no comment_separate node has a direct comment child (missing: the separated case) ... *)
Theorem C28_human_tokens_partial : forall (s : seg) (i : nat), separates s = false ->
  hleaves (stringify i false s) = map seg_tok (filter nonmeta (raw_segments s)).
Proof. exact stringify_tokens. Qed.
Print Assumptions C28_human_tokens_partial.

(* ... and always with --code-only (which never separates comments). *)
Theorem C28_human_tokens_code_only : forall (s : seg) (i : nat), is_code s = true ->
  hleaves (stringify i true s) = map seg_tok (filter is_code (raw_segments s)).
Proof. exact stringify_tokens_code_only. Qed.
Print Assumptions C28_human_tokens_code_only.

(* the hypotheses are satisfiable, and what the functions produce on a small tree *)
Definition P (a b : Z) : option posd := Some [([115]%N, a); ([101]%N, b)].   (* {"s": a, "e": b} *)
Definition ex_tree : seg :=                        (* f[ s[ k'ab' i w' ' n'1' p'{%' ] w' ' c'--' w'\n' E ] *)
  SNode [102]%N false false (P 0 10)
    [ SNode [115]%N false false (P 0 4)
        [ SRaw [107]%N [97;98]%N true false (P 0 2); SMeta [105]%N None (P 2 2); SRaw [119]%N [32]%N false false (P 2 3);
          SRaw [110]%N [49]%N true false (P 3 4); SMeta [112]%N (Some [123;37]%N) (P 4 6) ];
      SRaw [119]%N [32]%N false false (P 6 7); SRaw [99]%N [45;45]%N false true (P 7 9);
      SRaw [119]%N [10]%N false false (P 9 10); SMeta [69]%N None (P 10 10) ].
Definition ex_mt (ty : text) : bool := existsb (text_eqb ty) [[105]; [112]; [69]]%N.

Example ex_hyps : nonempty_nodes ex_tree = true /\ is_node ex_tree = true /\ is_meta ex_tree = false
                  /\ is_code ex_tree = true /\ meta_typed ex_mt ex_tree = true /\ separates ex_tree = false.
Proof. vm_compute. repeat split. Qed.

(* unique child keys -> one dict; a repeated key (two 'w') -> list of single-key dicts *)
Example ex_record : as_record false true false false ex_tree
  = [([102], RList [ [([115], RDict [([107], RStr [97;98]); ([119], RStr [32]); ([110], RStr [49])])];
                     [([119], RStr [32])]; [([99], RStr [45;45])]; [([119], RStr [10])] ])]%N.
Proof. vm_compute. reflexivity. Qed.

Example ex_concat : texts (leaves_rec (as_record false true false true ex_tree)) = [97;98;32;49;32;45;45;10]%N
                    /\ raw_of ex_tree = [97;98;32;49;32;45;45;10]%N.
Proof. vm_compute. split; reflexivity. Qed.

(* an empty container becomes None and is still recovered *)
Example ex_none : simplify (TTup [97]%N [TTup [98]%N [] None] None) = [([97], RDict [([98], RNone)])]%N
                  /\ untuple [([97], RDict [([98], RNone)])]%N = [TTup [97]%N [TTup [98]%N [] None] None].
Proof. vm_compute. split; reflexivity. Qed.

(* with positions every child dict carries the same position keys, so two or more children always give a list *)
Example ex_positions : simplify (TTup [97]%N [TStr [98]%N [120]%N (P 0 1); TStr [99]%N [121]%N (P 1 2)] (P 0 2))
  = [([115], RInt 0); ([101], RInt 2);
     ([97], RList [ [([115], RInt 0); ([101], RInt 1); ([98], RStr [120])];
                    [([115], RInt 1); ([101], RInt 2); ([99], RStr [121])] ])]%N.
Proof. vm_compute. reflexivity. Qed.

(* the refutation witness, spelled out: tree order is word, comment; the human format lists comment, word *)
Example ex_reorder : hleaves (stringify 0 false reorder_witness) = [([99], [45;45]); ([119], [120])]%N
                     /\ map seg_tok (raw_segments reorder_witness) = [([119], [120]); ([99], [45;45])]%N.
Proof. vm_compute. split; reflexivity. Qed.
