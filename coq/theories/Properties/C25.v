(* C25 — File discovery honours ignore files regardless of path spelling.

   Model: Model/Discovery.v (paths_from_path, _iter_files_in_path, _process_exact_path, iter_intermediate_paths, and the posixpath /
   os.walk fragments they use; paths are strings, the spelling of the path is the [path] argument; pathspec is the oracle [matches]).
   Vocabulary (Proofs/DiscoveryP.v):
     slashcat [a;b;c]      the string "/a/b/c";   abs_spelling ps p: p is "/a/b/c" or "/a/b/c/" for ps = [a;b;c]
     names_ok / wf_dir     names are non-empty, contain no '/', are not "." or ".."; sibling directories have distinct names
     selected … mode d cs f: the file f of the directory cs (names below the walked directory d) has a configured extension,
                           is not ignored, and no directory on the way down to it was pruned; "ignored" = matched by an outer spec or by
                           a spec loaded in a directory between d and cs (both included; mode = true throughout this file), the
                           path being taken relative to the directory of the spec.
   The model follows /repo after commit 08d2a28 (repair of finding F8: the relevance test of inner ignore specs compares absolute
   paths on both sides). *)
From SF Require Import Base.Prelude Model.Discovery Proofs.DiscoveryP.

(* For every ABSOLUTE spelling (with or without a trailing slash) of a directory, every tree, every oracle, every set of outer
   specs and extensions: the walk yields exactly the files under the path that have a configured extension, are matched by no
   applicable ignore spec (outer = ancestor directories; inner = directories between the path and the file) and have no pruned
   ancestor; each under its absolute name. *)
Theorem C25_walk_spec_abs :
  forall (matches : nat -> list text -> bool) (cwd : text) (ignore_files : bool) (outer : list specrec) (exts : list text)
         (ps : list text) (p : text) (d : dir),
    ps <> [] -> names_ok ps -> abs_spelling ps p -> wf_dir d ->
    forall rel out,
      In (rel, out) (iter_files_in_path matches cwd ignore_files outer exts d p) <->
      exists cs f, rel = cs ++ [f] /\ out = slashcat (ps ++ cs ++ [f])
                   /\ selected matches ignore_files exts (outer_hit_abs matches cwd outer ps) true d cs f.
Proof.
  intros matches cwd ignore_files outer exts ps p d Hne Hok Hp Hwf. assert (Sp := spells_abs cwd ps p Hne Hok Hp).
  exact (walk_spec matches cwd ignore_files outer exts p ps _ Sp (oname_abs ps p Hne Hok Hp) d Hwf).
Qed.
Print Assumptions C25_walk_spec_abs.

(* The same for the whole of paths_from_path: the outer specs are the ignore files of the directories from the common path of the
   working path and the given path down to the given path (outer_specs = iter_intermediate_paths + loaders). *)
Theorem C25_paths_from_path_abs :
  forall (matches : nat -> list text -> bool) (cwd : text) (root : dir) (ps : list text) (p : text) (d : dir)
         (ignore_non_existent_files ignore_files : bool) (working_path : text) (exts : list text),
    ps <> [] -> names_ok ps -> abs_spelling ps p -> lookup root ps = NDir d -> wf_dir d ->
    exists l, paths_from_path_g matches cwd root p ignore_non_existent_files ignore_files working_path exts false = Ok l /\
      forall id out, In (id, out) l <->
        exists cs f, id = ps ++ cs ++ [f] /\ out = slashcat (ps ++ cs ++ [f])
                     /\ selected matches ignore_files (map lower exts)
                                 (outer_hit_abs matches cwd (if ignore_files then outer_specs cwd root p working_path else []) ps)
                                 true d cs f.
Proof.
  intros matches cwd root ps p d ine ign wp exts Hne Hok Hp Hl Hwf. assert (Sp := spells_abs cwd ps p Hne Hok Hp).
  exact (paths_from_path_spec matches cwd root ps p d _ ine ign wp exts Sp (oname_abs ps p Hne Hok Hp)
           (proj1 (abs_spelling_abs ps p Hne Hp)) Hl Hwf).
Qed.
Print Assumptions C25_paths_from_path_abs.

(* Spelling invariance, the part that holds: a trailing slash on an absolute path changes nothing. *)
Theorem C25_spelling_invariance_abs_trailing_slash :
  forall (matches : nat -> list text -> bool) (cwd : text) (ignore_files : bool) (outer : list specrec) (exts : list text)
         (ps : list text) (d : dir),
    ps <> [] -> names_ok ps -> wf_dir d ->
    forall x, In x (iter_files_in_path matches cwd ignore_files outer exts d (slashcat ps))
              <-> In x (iter_files_in_path matches cwd ignore_files outer exts d (slashcat ps ++ [slash])).
Proof.
  intros matches cwd ignore_files outer exts ps d Hne Hok Hwf [rel out].
  rewrite (C25_walk_spec_abs matches cwd ignore_files outer exts ps _ d Hne Hok (or_introl eq_refl) Hwf).
  rewrite (C25_walk_spec_abs matches cwd ignore_files outer exts ps _ d Hne Hok (or_intror eq_refl) Hwf). reflexivity.
Qed.
Print Assumptions C25_spelling_invariance_abs_trailing_slash.

(* RELATIVE spellings (any non-empty path string not starting with '/': "x", "./x", "x/", ".", "../x"; the working directory is
   "/c1/../cn"; the path does not denote the file-system root): since the repair of F8 the walk is characterised exactly as for the
   absolute spelling of the same directory (parts_of cwd p = its absolute components): inner specs apply in their whole subtree.
   Only the yielded names differ ([oname] = the normalised, still relative, name). *)
Theorem C25_walk_spec_rel :
  forall (matches : nat -> list text -> bool) (cwd : text) (ignore_files : bool) (outer : list specrec) (exts : list text)
         (cw : list text) (p : text) (d : dir),
    cw <> [] -> names_ok cw -> cwd = slashcat cw -> p <> [] -> isabs p = false -> parts_of cwd p <> [] -> wf_dir d ->
    forall rel out,
      In (rel, out) (iter_files_in_path matches cwd ignore_files outer exts d p) <->
      exists cs f, rel = cs ++ [f] /\ out = oname p (cs ++ [f])
                   /\ selected matches ignore_files exts (outer_hit_abs matches cwd outer (parts_of cwd p)) true d cs f.
Proof.
  intros matches cwd ignore_files outer exts cw p d Hcw Hok Hcwd Hp Hrel Hroot Hwf.
  apply (walk_spec matches cwd ignore_files outer exts p _ (oname p) (spells_rel cwd cw p Hcw Hok Hcwd Hp Hrel Hroot)); [reflexivity|exact Hwf].
Qed.
Print Assumptions C25_walk_spec_rel.

(* Spelling invariance of the WALK, in full (".." included): against the same outer specs, every relative spelling selects exactly the
   files that the absolute spelling of the same directory selects. *)
Theorem C25_spelling_invariance_walk :
  forall (matches : nat -> list text -> bool) (cwd : text) (ignore_files : bool) (outer : list specrec) (exts : list text)
         (cw : list text) (p : text) (d : dir),
    cw <> [] -> names_ok cw -> cwd = slashcat cw -> p <> [] -> isabs p = false -> parts_of cwd p <> [] -> wf_dir d ->
    forall rel, (exists out, In (rel, out) (iter_files_in_path matches cwd ignore_files outer exts d p))
                <-> (exists out, In (rel, out) (iter_files_in_path matches cwd ignore_files outer exts d (slashcat (parts_of cwd p)))).
Proof.
  intros matches cwd ignore_files outer exts cw p d Hcw Hok Hcwd Hp Hrel Hroot Hwf rel.
  assert (Sp := spells_rel cwd cw p Hcw Hok Hcwd Hp Hrel Hroot).
  apply (walk_spelling_same matches cwd ignore_files outer exts _ p _ Sp (spells_slashcat cwd _ p Sp) d Hwf).
Qed.
Print Assumptions C25_spelling_invariance_walk.

(* Spelling invariance of paths_from_path (outer ignore files included), PARTIAL: for every directory path spelled relatively WITHOUT a
   ".." component ("x", "./x", "x/", ".", "./", "a//b"), every working path, flags and extensions, the relative spelling and the
   absolute spelling "/cwd.../x" select the same set of files.  Together with C25_spelling_invariance_abs_trailing_slash this covers all
   the spellings of the property text (relative, absolute, ".").
   Missing for the full statement: (1) spellings with ".." - FALSE of the model, see C25_dotdot_spelling_refuted (open finding in
   iter_intermediate_paths); (2) exact-file targets (_process_exact_path; covered by correspondence and the oracles only); (3) the working
   directory "/" and paths denoting "/". *)
Theorem C25_spelling_invariance_partial :
  forall (matches : nat -> list text -> bool) (cwd : text) (cw : list text) (root : dir) (p : text) (d : dir)
         (ignore_non_existent_files ignore_files : bool) (working_path : text) (exts : list text),
    cw <> [] -> names_ok cw -> cwd = slashcat cw -> p <> [] -> isabs p = false -> ~ In dotdot_t (split_on p) ->
    lookup root (cw ++ pure_parts p) = NDir d -> wf_dir d ->
    exists l1 l2,
      paths_from_path_g matches cwd root p ignore_non_existent_files ignore_files working_path exts false = Ok l1 /\
      paths_from_path_g matches cwd root (slashcat (cw ++ pure_parts p)) ignore_non_existent_files ignore_files working_path exts false = Ok l2 /\
      forall id, In id (map fst l1) <-> In id (map fst l2).
Proof.
  intros matches cwd cw root p d ine ign wp exts Hcw Hok Hcwd Hp Hrel Hdd Hl Hwf.
  assert (Sp := spells_nodotdot cwd cw p Hcw Hok Hcwd Hp Hrel Hdd).
  apply (paths_spelling_same matches cwd root _ p _ d ine ign wp exts Sp (spells_slashcat cwd _ p Sp) Hp); [| |exact Hl|exact Hwf].
  - apply (abs_spelling_abs _ _ (proj1 Sp) (or_introl eq_refl)).
  - apply outer_specs_nodotdot; assumption.
Qed.
Print Assumptions C25_spelling_invariance_partial.

(* Regression pin for finding F8 (repaired in /repo by 08d2a28; before the repair this was C25_spelling_invariance_refuted).

   /t/src/.sqlfluffignore contains "x.sql"; files /t/src/x.sql and /t/src/sub/x.sql; working directory /t.  The oracle table says what
   pathspec says: the spec matches "x.sql" and "sub/x.sql" (relative to /t/src).  Before the repair paths_from_path(".") selected
   src/sub/x.sql (the walk, spelled relatively, compared "./src/sub" with "/t/src/" and dropped the spec) while "/t" selected nothing.
   Now both select nothing. *)
Open Scope N_scope.
Definition w_ignore : text := [46;115;113;108;102;108;117;102;102;105;103;110;111;114;101].  (* .sqlfluffignore *)
Definition w_x : text := [120;46;115;113;108].                                                (* x.sql *)
Definition w_t : text := [116].  Definition w_src : text := [115;114;99].  Definition w_sub : text := [115;117;98].
Definition w_root : dir :=
  Dir [] [] [(w_t, Dir [] [] [(w_src, Dir [w_ignore; w_x] [(w_ignore, Some 0%nat)] [(w_sub, Dir [w_x] [] [])])])].
Definition w_tbl : list (nat * list text) := [(0%nat, [w_x]); (0%nat, [w_sub; w_x])].
Definition w_cwd : text := [47;116].             (* /t *)
Definition w_exts : list text := [[46;115;113;108]].
Close Scope N_scope.

Theorem C25_f8_witness_repaired :
  selected_ids (paths_from_path_g (tbl_matches w_tbl) w_cwd w_root [dot] false true w_cwd w_exts false)
  = selected_ids (paths_from_path_g (tbl_matches w_tbl) w_cwd w_root w_cwd false true w_cwd w_exts false)
  /\ paths_from_path (tbl_matches w_tbl) w_cwd w_root [dot] false true w_cwd w_exts false = Ok []
  /\ paths_from_path (tbl_matches w_tbl) w_cwd w_root w_src false true w_cwd w_exts false = Ok [].
Proof. vm_compute. repeat split. Qed.
Print Assumptions C25_f8_witness_repaired.

(* without the ignore file the file is selected under both spellings: the pin is not vacuous *)
Example C25_f8_witness_without_ignore_file :
  paths_from_path (tbl_matches []) w_cwd w_root [dot] false true w_cwd w_exts false
  = Ok [w_src ++ [slash] ++ w_sub ++ [slash] ++ w_x; w_src ++ [slash] ++ w_x].
Proof. vm_compute. reflexivity. Qed.

(* The spelling still matters for ".." (OPEN finding, not repaired): ".." keeps the directories it climbs out of in the search for outer ignore files
   (iter_intermediate_paths takes the common path of the UNRESOLVED path), so an ignore file in /t/src/sub is applied to files of /t/src
   when /t/src is spelled ".." from /t/src/sub: pathspec matches the pattern "x.sql" against "../x.sql". *)
Open Scope N_scope.
Definition w2_root : dir :=
  Dir [] [] [(w_t, Dir [] [] [(w_src, Dir [w_x] [] [(w_sub, Dir [w_ignore; w_x] [(w_ignore, Some 0%nat)] [])])])].
Definition w2_tbl : list (nat * list text) := [(0%nat, [w_x]); (0%nat, [dotdot_t; w_x])].
Definition w2_cwd : text := [47;116;47;115;114;99;47;115;117;98].     (* /t/src/sub *)
Definition w2_abs : text := [47;116;47;115;114;99].                   (* /t/src *)
Close Scope N_scope.

Theorem C25_dotdot_spelling_refuted :
  exists (matches : nat -> list text -> bool) (cwd : text) (root : dir) (p1 p2 : text) (exts : list text),
    parts_of cwd p1 = parts_of cwd p2 /\
    selected_ids (paths_from_path_g matches cwd root p1 false true cwd exts false)
    <> selected_ids (paths_from_path_g matches cwd root p2 false true cwd exts false).
Proof.
  exists (tbl_matches w2_tbl), w2_cwd, w2_root, dotdot_t, w2_abs, w_exts.
  split; [vm_compute; reflexivity|vm_compute; discriminate].
Qed.
Print Assumptions C25_dotdot_spelling_refuted.

Example C25_witness2_absolute :
  paths_from_path (tbl_matches w2_tbl) w2_cwd w2_root w2_abs false true w2_cwd w_exts false = Ok [w2_abs ++ [slash] ++ w_x].
Proof. vm_compute. reflexivity. Qed.
Example C25_witness2_dotdot :
  paths_from_path (tbl_matches w2_tbl) w2_cwd w2_root dotdot_t false true w2_cwd w_exts false = Ok [].
Proof. vm_compute. reflexivity. Qed.

(* the hypotheses of the positive theorems are satisfiable by non-trivial values *)
Example C25_hyps_satisfiable :
  names_ok [w_t] /\ abs_spelling [w_t] w_cwd /\ lookup w_root [w_t] = NDir (Dir [] [] [(w_src, Dir [w_ignore; w_x] [(w_ignore, Some 0)] [(w_sub, Dir [w_x] [] [])])])
  /\ wf_dir w_root.
Proof.
  split; [repeat constructor|]. split; [left; reflexivity|]. split; [reflexivity|].
  cbn [wf_dir w_root map fst snd]. repeat constructor; cbn [In]; intuition discriminate.
Qed.
