(* C18 — Files with template or parse errors are never modified by fix.  The property theorems, each read off the one gate of
   Proofs/GateP.v (gate_spec, gate_agreement).
   (The fix-loop part -- loop limit => tree rolled back -- is in Model/FixLoop.v, theorem C18_loop_limit_rollback.) *)
From SF Require Import Base.Prelude Model.Gate Proofs.GateP.

(* by path: a file is written only if fix_even_unparsable is set or it has NO templating/parsing violation at all
   (suppressed ones included: the count is taken before any filtering) *)
Theorem C18_paths_gate : forall f feu changed,
  paths_written f feu changed = true -> feu = true \/ (forall v, In v f -> is_tp v = false).
Proof.
  intros f feu changed H. apply gate_spec.
  apply andb_true_iff in H as [H _]. apply andb_true_iff in H as [H _]. exact H.
Qed.
Print Assumptions C18_paths_gate.

(* stdin: stdout is the fixed string only under the same condition *)
Theorem C18_stdin_gate : forall f feu,
  snd (stdin_fix f feu) = true -> feu = true \/ (forall v, In v f -> is_tp v = false).
Proof.
  intros f feu H. apply gate_spec. rewrite gate_agreement. cbn [stdin_fix snd] in H.
  apply andb_true_iff in H as [H _]. exact H.
Qed.
Print Assumptions C18_stdin_gate.

Theorem C18_api_gate : forall f feu,
  api_should_fix f feu = true -> feu = true \/ (forall v, In v f -> is_tp v = false).
Proof. intros f feu. apply gate_spec. Qed.
Print Assumptions C18_api_gate.

(* regression witness of the repaired defect F5: gating the API on the filtered count let a suppressed error through *)
Theorem C18_f5_api_filtered_gate_refuted :
  exists f, api_should_fix_f5 f false = true /\ exists v, In v f /\ is_tp v = true.
Proof.
  exists [mkVS KPrs false true false; mkVS KLint true false false]. split; [reflexivity|].
  eexists. split; [left; reflexivity|reflexivity].
Qed.
Print Assumptions C18_f5_api_filtered_gate_refuted.
