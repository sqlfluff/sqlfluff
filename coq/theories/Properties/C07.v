(* C07 — Template source maps are consistent.
   PARTIAL: proved for EVERY templater at once -- a TemplatedFile that exists passed the constructor's checks, which enforce that
   the raw slices tile the source and the rendered slices tile the rendered SQL, in order (C07_constructor_enforces_tiling) -- and
   for the Jinja tracer's bookkeeping (C07_tracer_... theorems).  The placeholder templater's slice construction is proved under C09
   (C09_placeholder_slices_tile).  Not modelled: Jinja itself, the analyzer's raw slicing, the python templater's slicing heuristics
   and the variant rectifier; "source slices within the file" and "literal slices map to identical text" are not enforced by the
   constructor and are monitored on every variant the real templaters produce. *)
From SF Require Import Base.Prelude Model.TemplatedFile Proofs.TemplatedFileP.

Theorem C07_constructor_enforces_tiling : forall nsrc ntpl rs fs,
  ctor_check nsrc ntpl rs fs = Ok tt -> raw_tiles 0 nsrc rs /\ (fs <> [] -> tpl_tiles 0 ntpl fs).
Proof. exact ctor_enforces_tiling. Qed.
Print Assumptions C07_constructor_enforces_tiling.

Theorem C07_tracer_templated_tiles : forall starts nsrc calls,
  let st := run_trace starts nsrc calls in tpl_tiles 0 (fst st) (snd st).
Proof. exact tracer_templated_tiles. Qed.
Print Assumptions C07_tracer_templated_tiles.

Theorem C07_tracer_source_slices_are_raw_slices : forall starts nsrc calls,
  Forall (fun f => exists idx, fst f = src_slice_of starts nsrc idx) (snd (run_trace starts nsrc calls)).
Proof.
  intros starts nsrc calls. apply (fold_left_ind (fun st => Forall _ (snd st))); [constructor|].
  intros [cur acc] [len idx] _ H. apply Forall_app. split; [exact H|]. repeat constructor. exists idx. reflexivity.
Qed.
Print Assumptions C07_tracer_source_slices_are_raw_slices.

Example C07_ctor_example : ctor_check 7 5 [(0, 3); (3, 4)] [((0, 3), (0, 3)); ((3, 7), (3, 5))] = Ok tt.
Proof. reflexivity. Qed.
Example C07_ctor_gap_rejected : ctor_check 7 5 [(0, 3); (3, 4)] [((0, 3), (0, 3)); ((3, 7), (4, 5))] = Err ESkipFile.
Proof. reflexivity. Qed.
