(* C15 — Capitalisation fixes change only letter case.
   Model: Model/Caps.v (CP01._handle_segment and its reuse by CP02..CP05; ASCII case functions, see the header there). *)
From SF Require Import Base.Prelude Model.Caps Proofs.CapsP.

(* The concrete transforms of the policies upper, lower, capitalise, pascal, camel keep the length and change nothing but the
   case of ASCII letters:  case_only f := forall s, length (f s) = length s /\ lower (f s) = lower s. *)
Theorem C15_transforms_case_only :
  case_only upper /\ case_only lower /\ case_only capitalise /\ case_only pascal /\ case_only camel.
Proof.
  exact (conj (apply_policy_case_only PUpper eq_refl) (conj (apply_policy_case_only PLower eq_refl)
        (conj (apply_policy_case_only PCapitalise eq_refl) (conj (apply_policy_case_only PPascal eq_refl)
        (apply_policy_case_only PCamel eq_refl))))).
Qed.
Print Assumptions C15_transforms_case_only.

(* The same statement for the sixth policy is false of the faithful model: snake turns aB into a_b (and col1 into col_1). *)
Theorem C15_snake_case_only_refuted : exists s, length (snake s) <> length s /\ snake s = [97; 95; 98]%N.
Proof. exists [97; 66]%N. rewrite (proj1 snake_witness). split; [discriminate|reflexivity]. Qed.
Print Assumptions C15_snake_case_only_refuted.

(* ... what snake does preserve: the text up to letter case and underscores. *)
Theorem C15_snake_changes_only_case_and_underscores : forall s, drop_us (lower (snake s)) = drop_us (lower s).
Proof. exact us_snake. Qed.
Print Assumptions C15_snake_changes_only_case_and_underscores.

(* The `consistent` policy: whatever the memory accumulated so far (latest_possible_case, if set, was set by this very code:
   mem_ok), whatever the configured option list and the token, a fix is always computed with upper, lower or capitalise
   (camel, pascal and snake are always refuted for inference), i.e. with a case-only transform. *)
Theorem C15_consistent_policy_choice : forall opts skip m raw m' p fixed,
  mem_ok m -> handle_segment Consistent opts skip m raw = (m', Some (p, fixed)) ->
  (p = PUpper \/ p = PLower \/ p = PCapitalise) /\ fixed = apply_policy p raw /\ mem_ok m'.
Proof.
  intros opts skip m raw m' p fixed Hm H. destruct (handle_segment_spec Consistent opts skip m raw Hm) as [H1 H2].
  rewrite H in H1, H2. destruct H2 as [Hf Hb]. split; [|split; assumption].
  cbn [may_use] in Hb. destruct p; try discriminate Hb; auto.
Qed.
Print Assumptions C15_consistent_policy_choice.

(* Main statement.  For the policy `consistent` and every explicit policy except snake, for every option list, ignore
   predicate, targeting predicate (which tokens the crawler and _eval hand to _handle_segment), every number of passes of the
   fix loop and every token list: the output has the same number of tokens, token by token the same kind, the same length
   and the same text up to ASCII letter case; and every token the rule does not target is unchanged. *)
Theorem C15_fix_changes_only_case : forall cap opts skip target loops toks,
  (cap = Consistent \/ exists p, cap = Explicit p /\ p <> PSnake) ->
  let out := fix_loop cap opts skip target loops toks in
  Forall2 (fun a b => t_kind b = t_kind a /\ length (t_raw b) = length (t_raw a) /\ lower (t_raw b) = lower (t_raw a)) toks out
  /\ (forall j t, nth_error toks j = Some t -> target j t = false -> nth_error out j = Some t).
Proof.
  intros cap opts skip target loops toks Hcap. split; [|apply fix_loop_frame].
  apply (map_eq_Forall2 (tok_nf lower)); [intros a b E; inversion E; auto using lower_length|].
  apply fix_loop_nf. intros p s Hp. apply lower_apply_policy.
  destruct Hcap as [->|(q & -> & Hq)]; cbn [may_use] in Hp; [destruct p; try discriminate Hp; reflexivity|].
  destruct p; try reflexivity. congruence.
Qed.
Print Assumptions C15_fix_changes_only_case.

(* With the snake policy the main statement is false of the faithful model (finding F13: by design of the rule). *)
Theorem C15_fix_snake_refuted : exists opts skip target toks,
  ~ Forall2 (fun a b => t_kind b = t_kind a /\ length (t_raw b) = length (t_raw a) /\ lower (t_raw b) = lower (t_raw a))
      toks (fix_loop (Explicit PSnake) opts skip target 1 toks).
Proof.
  exists [PUpper; PLower; PPascal; PCapitalise; PSnake; PCamel], (fun _ => false), (fun _ _ => true), [mkTok 0 [97; 66]%N].
  intros H. inversion H as [|a b l1 l2 (_ & Hlen & _) Hrest]. vm_compute in Hlen. discriminate.
Qed.
Print Assumptions C15_fix_snake_refuted.

(* For every policy, snake included: nothing changes but letter case and underscores, and untargeted tokens are unchanged. *)
Theorem C15_fix_any_policy_case_and_underscores : forall cap opts skip target loops toks,
  let out := fix_loop cap opts skip target loops toks in
  Forall2 (fun a b => t_kind b = t_kind a /\ drop_us (lower (t_raw b)) = drop_us (lower (t_raw a))) toks out
  /\ (forall j t, nth_error toks j = Some t -> target j t = false -> nth_error out j = Some t).
Proof.
  intros cap opts skip target loops toks. split; [|apply fix_loop_frame].
  apply (map_eq_Forall2 (tok_nf (fun s => drop_us (lower s)))); [intros a b E; inversion E; auto|].
  apply fix_loop_nf. intros p s _. apply us_apply_policy.
Qed.
Print Assumptions C15_fix_any_policy_case_and_underscores.

(* Frame of one crawl (every result is the single fix replace(anchor, [anchor.edit(fixed_raw)])): same kinds in the same
   order, and every token that is not targeted or is skipped (ignore_words, ignore_words_regex, templated) is unchanged,
   from any memory. *)
Theorem C15_single_replace_frame : forall cap opts skip target i m toks,
  map t_kind (crawl cap opts skip target i m toks) = map t_kind toks
  /\ (forall j t, nth_error toks j = Some t -> (target (i + j) t = false \/ skip (t_raw t) = true) ->
                  nth_error (crawl cap opts skip target i m toks) j = Some t).
Proof. intros cap opts skip target i m toks. split; [apply crawl_kinds|apply crawl_untouched]. Qed.
Print Assumptions C15_single_replace_frame.

(* Second sentence of the property (quoted identifiers, string literals, comments and whitespace are unchanged), as far as the
   model can say it: IF the crawler and _eval never hand a token of a frozen kind to _handle_segment, then frozen tokens are
   unchanged by any number of passes under every policy.  PARTIAL: the hypothesis is a statement about the crawl sets of CP01..CP05
   against the segment types the 28 dialect grammars assign to raw tokens; it is not modelled, only monitored end to end by
   harness/props/c15.py -- and the monitor shows it is false of the implementation in three places (quoted function names typed
   function_name_identifier in bigquery/tsql; quoted option values parsed as KeywordSegment in snowflake/materialize; comments
   inside a data type handed to _handle_segment by CP05). *)
Theorem C15_frozen_tokens_unchanged_partial : forall (frozen : token -> bool) cap opts skip target loops toks,
  (forall j t, frozen t = true -> target j t = false) ->
  forall j t, nth_error toks j = Some t -> frozen t = true ->
              nth_error (fix_loop cap opts skip target loops toks) j = Some t.
Proof.
  intros frozen cap opts skip target loops toks Hfz j t Hn Hf.
  exact (fix_loop_frame cap opts skip target loops toks j t Hn (Hfz j t Hf)).
Qed.
Print Assumptions C15_frozen_tokens_unchanged_partial.

(* Hypotheses are satisfiable by non-trivial values. *)
Example C15_ex_mem_ok : mem_ok mem0 /\ mem_ok (mkMem [PUpper; PCapitalise] (Some PLower)).
Proof. split; [exact I | reflexivity]. Qed.

(* select From WHERE Quoted-identifier (kinds: 0 keyword, 1 quoted identifier; only kind 0 targeted), consistent policy:
   first pass: select -> latest = lower; From, WHERE -> lower.  The quoted token is untouched. *)
Example C15_ex_consistent :
  fix_loop Consistent [PUpper; PLower; PCapitalise] (fun _ => false) (fun _ t => Nat.eqb (t_kind t) 0) 2
    [mkTok 0 [115;101;108]%N; mkTok 0 [70;114;111;109]%N; mkTok 1 [34;81;117;34]%N; mkTok 0 [87;72]%N]
  = [mkTok 0 [115;101;108]%N; mkTok 0 [102;114;111;109]%N; mkTok 1 [34;81;117;34]%N; mkTok 0 [119;104]%N].
Proof. vm_compute. reflexivity. Qed.

(* a fix under `consistent` really happens with a basic policy: memory after `select`, then `From` *)
Example C15_ex_choice :
  handle_segment Consistent [PUpper; PLower; PPascal; PCapitalise; PSnake; PCamel] (fun _ => false)
    (fst (handle_segment Consistent [PUpper; PLower; PPascal; PCapitalise; PSnake; PCamel] (fun _ => false) mem0 [115;101;108]%N))
    [70;114;111;109]%N
  = (mkMem [PUpper; PLower; PCamel; PPascal; PSnake; PUpper; PCapitalise; PCamel; PPascal; PSnake] (Some PLower),
     Some (PLower, [102;114;111;109]%N)).
Proof. vm_compute. reflexivity. Qed.

(* pascal and camel on  fooBar_baz1 : FooBar_Baz1 / fooBar_baz1; snake: foo_bar_baz_1 *)
Example C15_ex_pascal : pascal [102;111;111;66;97;114;95;98;97;122;49]%N = [70;111;111;66;97;114;95;66;97;122;49]%N.
Proof. vm_compute. reflexivity. Qed.
Example C15_ex_snake : snake [102;111;111;66;97;114;95;98;97;122;49]%N = [102;111;111;95;98;97;114;95;98;97;122;95;49]%N.
Proof. vm_compute. reflexivity. Qed.
