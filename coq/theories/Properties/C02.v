(* C02 — Parsing is lossless: tree leaves are exactly the lexed tokens.  The property theorems: apply and root_parse from
   apply_spec and root_parse_spec (Proofs/MatchResultP.v), wrap and append from wf_b_children (same file).
   Tokens are indices into the lexed tuple, so "never discarded, duplicated or reordered" is `tokens = seq start len`. *)
From SF Require Import Base.Prelude Model.MatchResult Proofs.MatchResultP.

(* For EVERY match result, token count and nesting depth: if the certificate checker accepts it, materialising the tree
   (MatchResult.apply) succeeds -- no "Segment skip ahead" ValueError, no AssertionError, no IndexError -- and the leaves of the
   produced forest that are tokens are exactly the tokens start..stop-1, each once, in order. *)
Theorem C02_apply_lossless : forall n m,
  wf_b n m = true -> exists ts, apply n m = Ok ts /\ tokens_of_l ts = seq (mstart m) (mlen m).
Proof. exact apply_lossless. Qed.
Print Assumptions C02_apply_lossless.

(* File level (BaseFileSegment.root_parse): whatever the root grammar returns -- nothing, a partial match, a complete one -- provided a
   truthy result is certified, starts at the first code token and stays before the trimmed end: the file node's token leaves are
   exactly tokens 0..n-1 in order; what the grammar did not claim sits inside an unparsable node, nothing is discarded. *)
Theorem C02_root_parse_lossless : forall n is_code m t,
  start_idx n is_code <= end_idx n is_code -> end_idx n is_code <= n ->
  (truthy m = true -> wf_b n m = true /\ mstart m = start_idx n is_code /\ mstop m <= end_idx n is_code) ->
  root_parse n is_code m = Ok t -> tokens_of t = seq 0 n.
Proof. exact root_parse_lossless. Qed.
Print Assumptions C02_root_parse_lossless.

Example C02_root_parse_example :
  root_parse 6 (fun i => negb (i =? 0) && negb (i =? 3) && negb (i =? 5)) (MR 1 3 (Some 7) [] [])
  = Ok (Node 0 [Tok 0; Node 7 [Tok 1; Tok 2]; Tok 3; Node 1 [Tok 4]; Tok 5]).
Proof. reflexivity. Qed.

(* the hypothesis is satisfiable by a nested result with inserts, and the checker rejects overlapping children *)
Example C02_wf_example : wf_b 6 (MR 1 5 (Some 7) [(1, 0); (5, 1)] [MR 1 2 (Some 3) [] []; MR 3 5 None [(4, 0)] []]) = true.
Proof. reflexivity. Qed.
Example C02_overlap_rejected : wf_b 6 (MR 0 4 None [] [MR 0 3 (Some 1) [] []; MR 2 4 (Some 1) [] []]) = false.
Proof. reflexivity. Qed.
(* without the certificate apply can duplicate tokens silently: children given out of order make max_idx go backwards *)
Example C02_unordered_children_duplicate_refuted :
  exists ts, apply 6 (MR 0 5 None [] [MR 3 5 (Some 1) [] []; MR 3 3 None [(3, 0)] []]) = Ok ts /\ tokens_of_l ts <> seq 0 5.
Proof. eexists. split; [vm_compute; reflexivity|vm_compute; discriminate]. Qed.

(* The certificate is not only checked on finished root results: the two operations every grammar builds results with preserve it.
   Wrapping a certified result in a segment class (no extra inserts) is certified; appending two certified classed non-empty results
   that do not overlap is certified, holds exactly those two children, and apply returns the tokens of both and of the gap. *)
Theorem C02_wrap_keeps_certificate : forall n m outer m',
  wf_b n m = true -> wrap m outer [] = Ok m' -> wf_b n m' = true.
Proof. exact wrap_keeps_certificate. Qed.
Print Assumptions C02_wrap_keeps_certificate.

Theorem C02_append_classed_lossless : forall n a b ka kb m',
  wf_b n a = true -> wf_b n b = true -> mcls a = Some ka -> mcls b = Some kb -> 0 < mlen a -> 0 < mlen b ->
  append a b [] = Ok m' -> exists ts, apply n m' = Ok ts /\ tokens_of_l ts = seq (mstart a) (mstop b - mstart a).
Proof.
  intros n a b ka kb m' Ha Hb Ca Cb La Lb Happ.
  destruct (append_classed_keeps_certificate n a b ka kb m' Ha Hb Ca Cb La Lb Happ) as (Hwf & Hs & He & _).
  destruct (apply_lossless n m' Hwf) as [ts [H1 H2]]. exists ts. unfold mlen in H2. rewrite Hs, He in H2. split; assumption.
Qed.
Print Assumptions C02_append_classed_lossless.

Example C02_append_example :
  append (MR 1 2 (Some 3) [] []) (MR 3 5 (Some 4) [(4, 0)] []) [] = Ok (MR 1 5 None [] [MR 1 2 (Some 3) [] []; MR 3 5 (Some 4) [(4, 0)] []])
  /\ wf_b 6 (MR 1 2 (Some 3) [] []) = true /\ wf_b 6 (MR 3 5 (Some 4) [(4, 0)] []) = true.
Proof. repeat split; reflexivity. Qed.
