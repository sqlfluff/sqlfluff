(* C17 — Fix and format are idempotent.
   PARTIAL: rules are an oracle.  Proved about the loop: a tree on which no enabled rule proposes a fix is returned unchanged by a
   further run (C17_no_fix_identity: the fixpoint condition of idempotence), and a run that hits the loop limit returns its input
   (C17_limit_rollback), for every rule set and limit.  That the tree a stable run ends with IS such a fixpoint after re-reading
   the written text (re-lex/re-parse stability, rules as functions of the re-parsed tree, post-phase fixes not re-enabling main
   rules) is not provable here and is checked by running fix twice on every input of the corpus. *)
From SF Require Import Base.Prelude Model.FixLoop Proofs.FixLoopP.

Theorem C17_no_fix_identity : forall (T F : Type) teq feq limit rules t0,
  0 < limit -> (forall r, In r rules -> propose T F r t0 = None) -> lint_fix T F teq feq limit rules t0 = (t0, false).
Proof.
  intros T F teq feq limit rules t0 Hl H.
  apply (no_fix_identity T F teq feq (fun _ _ => True) (fun _ => I) (fun _ _ _ _ _ => I) limit rules t0 Hl H).
Qed.
Print Assumptions C17_no_fix_identity.

Theorem C17_limit_rollback : forall (T F : Type) teq feq limit rules t0,
  snd (lint_fix T F teq feq limit rules t0) = true -> fst (lint_fix T F teq feq limit rules t0) = t0.
Proof. exact limit_rollback. Qed.
Print Assumptions C17_limit_rollback.

(* the `fixes == last_fixes` short-circuit stops a rule that returns an equal fix list twice in a row although its second fix is
   applicable: the run ends at a tree that is not a fixpoint, and a second run (which starts with no last_fixes) moves on -- the
   abstract shape of a non-idempotent run *)
Example C17_same_fixes_shortcircuit_not_idempotent_refuted :
  let r := {| r_post := false; r_fixcompat := true; propose := fun t => if t =? 0 then Some (5, 1, true) else if t =? 1 then Some (5, 2, true) else None |} in
  let t1 := fst (lint_fix nat nat Nat.eqb Nat.eqb 10 [r] 0) in
  fst (lint_fix nat nat Nat.eqb Nat.eqb 10 [r] t1) <> t1.
Proof. vm_compute. discriminate. Qed.
