(* C09 — Python-format and placeholder templaters render faithfully. *)
From SF Require Import Base.Prelude Model.PyFormat Model.Placeholder Proofs.PyFormatP Proofs.PlaceholderP.

(* The python templater.
   py_render = render_func of PythonTemplater.process: the dot-notation regex rewrite, then str.format( **context ),
   every exception str.format raises (KeyError, IndexError, ValueError, AttributeError, TypeError) mapped to
   SQLTemplaterError.  spec_process = the property: str.format's grammar and lookup, except that a
   field name containing '.' is one key of the `sqlfluff` mapping.  Values, their attributes/items, conversions and
   format(value, spec) are arbitrary (oracles).

   PARTIAL: proved for the format strings `unparse l` with `safe_list l` (Model/PyFormat.v section 5): any literal text,
   escaped braces, arbitrary fields with conversions and (nested) specs -- provided that (i) no escaped open brace is
   followed by a '.' before the next ':' or close brace, (ii) a dotted field has no conversion, (iii) the spec of a dotted
   field is plain non-whitespace text and no close brace follows the field before the next whitespace, (iv) names carry
   no brackets (the exact conditions are those of safe_tok and follow_ok).  The four _refuted theorems below show that (i),
   (ii) and (iii) cannot be dropped; the fragment is sufficient, not necessary: "{a.b:{w}}" is rewritten correctly and
   lies outside it. *)
Theorem C09_dot_hack_correct_partial :
  forall (val : Type) (kw : text -> option val) (getattr_ : val -> text -> res val) (getitem_int : val -> N -> res val)
         (getitem_str : val -> text -> res val) (convert : cp -> val -> res val) (fmt : val -> text -> res text)
         (l : list tok),
  safe_list l = true ->
  py_render val kw getattr_ getitem_int getitem_str convert fmt (unparse l)
  = spec_process val kw getattr_ getitem_int getitem_str convert fmt (unparse l).
Proof. intros. unfold py_render, spec_process. rewrite dot_hack_format by assumption. reflexivity. Qed.
Print Assumptions C09_dot_hack_correct_partial.

(* "every valid format string renders", on the same fragment *)
Theorem C09_valid_renders_partial :
  forall (val : Type) kw getattr_ getitem_int getitem_str convert fmt (l : list tok) (out : text),
  safe_list l = true ->
  spec_process val kw getattr_ getitem_int getitem_str convert fmt (unparse l) = Ok out ->
  py_render val kw getattr_ getitem_int getitem_str convert fmt (unparse l) = Ok out.
Proof. intros * H E. rewrite C09_dot_hack_correct_partial by exact H. exact E. Qed.
Print Assumptions C09_valid_renders_partial.

(* The full statement (for every format string) is false of the model.  Four independent witnesses, all VALID format
   strings that the property renders and render_func does not (context: sqlfluff = {"a.b": "zz", "x.y": "w"}, a = "A"). *)

(* F4: "{{ {a.b}" should render "{ zz"; the regex matches at the escaped brace and asks for the key "{ {a.b". *)
Theorem C09_dot_hack_refuted :
  t_spec w_tab w_escaped = Ok [123; 32; 122; 122]%N /\ t_render w_tab w_escaped = Err ETemplater
  /\ dot_hack w_escaped = [123%N] ++ t_sqlfluff ++ [91; 123; 32; 123; 97; 46; 98; 93; 125]%N.
Proof. vm_compute. repeat split; reflexivity. Qed.
Print Assumptions C09_dot_hack_refuted.

(* "{a.b!r}" should render "'zz'"; the conversion is captured into the key "a.b!r". *)
Theorem C09_dot_hack_conversion_refuted :
  t_spec w_tab w_conversion = Ok [39; 122; 122; 39]%N /\ t_render w_tab w_conversion = Err ETemplater.
Proof. vm_compute. split; reflexivity. Qed.
Print Assumptions C09_dot_hack_conversion_refuted.

(* "{a.b: >4}" should render "  zz"; a spec containing whitespace is not matched, str.format evaluates "A".b and the
   AttributeError is reported as a templating error. *)
Theorem C09_dot_hack_spec_space_refuted :
  t_spec w_tab w_spec_space = Ok [32; 32; 122; 122]%N /\ t_render w_tab w_spec_space = Err ETemplater
  /\ dot_hack w_spec_space = w_spec_space.
Proof. vm_compute. repeat split; reflexivity. Qed.
Print Assumptions C09_dot_hack_spec_space_refuted.

(* "{a.b:>4}{x.y}" should render "  zzw"; group 2 extends to the last close brace and the second field is never rewritten. *)
Theorem C09_dot_hack_adjacent_refuted :
  t_spec w_tab w_adjacent = Ok [32; 32; 122; 122; 119]%N /\ exists e, t_render w_tab w_adjacent = Err e.
Proof. vm_compute. split; [reflexivity|eexists; reflexivity]. Qed.
Print Assumptions C09_dot_hack_adjacent_refuted.

(* The placeholder templater.
   For every source, every sorted non-overlapping list of matches inside it (the finditer oracle) and every context:
   the output is the source with each matched span replaced by its replacement and everything outside the spans
   (gaps) copied verbatim; the replacement of a match is str(context[name]) when the name is configured and the name
   itself otherwise, wrapped in the quotation group when the style has one; the name of a match is its param_name
   group, or, for styles without one, 1 + the number of earlier such matches, in decimal. *)
Theorem C09_placeholder_render :
  forall (ctx : text -> option text) (src : text) (ms : list pmatch),
  spans_ok 0 ms (length src) ->
  ph_out ctx src ms = interleave (gaps src 0 ms) (repls ctx 1 ms)
  /\ src = interleave (gaps src 0 ms) (matched src ms)
  /\ repls ctx 1 ms = map (fun p => replacement ctx (fst p) (snd p)) (combine (names 1 ms) ms)
  /\ (forall i m, nth_error ms i = Some m ->
        nth_error (names 1 ms) i =
          Some (match pm_name m with Some n => n | None => dec (1 + count_unnamed (firstn i ms)) end)).
Proof.
  intros ctx src ms H. split; [apply (ph_loop_gen ctx ms src 0 0%Z 1)|]. split; [exact (src_gen ms src 0 H)|].
  split; [apply repls_names|]. intros i m. apply names_gen.
Qed.
Print Assumptions C09_placeholder_render.

(* what `replacement` means, spelled out *)
Theorem C09_placeholder_replacement :
  forall (ctx : text -> option text) (name : text) (m : pmatch),
  replacement ctx name m =
    let body := match ctx name with Some v => v | None => name end in
    match pm_quot m with Some q => q ++ body ++ q | None => body end.
Proof. reflexivity. Qed.
Print Assumptions C09_placeholder_replacement.

(* The slices (shared with C07): source slices tile [0, len source), templated slices tile [0, len output), every literal
   slice covers identical text on both sides, the raw slices concatenate to the source with source_idx the running
   offset, and raw and templated slices have the same kinds in the same order. *)
Theorem C09_placeholder_slices_tile :
  forall (ctx : text -> option text) (src : text) (ms : list pmatch),
  spans_ok 0 ms (length src) ->
  let out := ph_out ctx src ms in
  let ts := ph_tslices ctx src ms in
  let rs := ph_rslices ctx src ms in
  ztiles (map ts_src ts) 0 (Z.of_nat (length src))
  /\ ztiles (map ts_tpl ts) 0 (Z.of_nat (length out))
  /\ Forall (fun t => ts_templated t = false -> zslice src (ts_src t) = zslice out (ts_tpl t)) ts
  /\ concat (map rs_raw rs) = src
  /\ idx_chain 0 rs
  /\ map rs_templated rs = map ts_templated ts.
Proof.
  intros ctx src ms H. destruct (ph_loop_tiles ctx ms src 0 1 [] H) as [T1 [T2 [T3 T5]]].
  destruct (ph_loop_gen ctx ms src 0 0%Z 1) as [_ [T4 T6]]. rewrite <- (src_gen ms src 0 H) in T4.
  repeat split; assumption.
Qed.
Print Assumptions C09_placeholder_slices_tile.

(* "SELECT {a.b:>6} FROM {t!r:>{w}} {{x}} {x.y}" is in the proved fragment *)
Example safe_example :
  let l := [TChr 83; TChr 32; TFld [97; 46; 98] None (Some [TChr 62; TChr 54]); TChr 32;
            TFld [116] (Some 114) (Some [TChr 62; TFld [119] None None]); TChr 32;
            TEsc 123; TChr 120; TEsc 125; TChr 32; TFld [120; 46; 121] None None]%N in
  safe_list l = true
  /\ unparse l = [83; 32; 123; 97; 46; 98; 58; 62; 54; 125; 32; 123; 116; 33; 114; 58; 62; 123; 119; 125; 125; 32;
                  123; 123; 120; 125; 125; 32; 123; 120; 46; 121; 125]%N.
Proof. vm_compute. split; reflexivity. Qed.

(* "a :x ? b ?" with a named and two positional matches: the positional ones are numbered 1 and 2 *)
Example spans_example :
  let ms := [mkPm 2 4 (Some [120%N]) None; mkPm 5 6 None None; mkPm 9 10 None None] in
  spans_ok 0 ms 10
  /\ ph_out (fun k => if text_eqb k [49%N] then Some [55; 55]%N else None)
            [97; 32; 58; 120; 32; 63; 32; 98; 32; 63]%N ms
     = [97; 32; 120; 32; 55; 55; 32; 98; 32; 50]%N.
Proof. split; [cbn [spans_ok pm_start pm_stop]; repeat constructor|vm_compute; reflexivity]. Qed.
