(* C26 — Writing fixed files is atomic and faithful.  The property theorems, weakenings of safe_write_outcome, write_all_each
   and write_all_nofault of Proofs/AtomicWriteP.v. *)
From SF Require Import Base.Prelude Model.AtomicWrite Proofs.AtomicWriteP.

(* For every content, mode, suffix setting and every fault (any operation raising, or the process dying before/after any
   operation, with any prefix of the data written): the target holds its complete original or the complete new content with
   the original permission bits; the input path of a suffixed write is untouched; after a raised fault no temp file remains;
   on success the target is the new content and no temp file remains. *)
Theorem C26_atomic_and_faithful : forall suffix new f s0, tmp s0 = None ->
  let o := safe_write suffix new f s0 in
  (tgt (st_of o) = tgt s0 \/ tgt (st_of o) = Some (new_file suffix new s0))
  /\ inp (st_of o) = inp s0
  /\ (match o with Raised s => tmp s = None | Done s => tmp s = None /\ tgt s = Some (new_file suffix new s0) | Died _ => True end).
Proof.
  intros suffix new f s0 H o. pose proof (safe_write_outcome suffix new f s0 H) as O. fold o in O.
  destruct o as [s|s|s]; cbn [st_of]; [subst s; auto|subst s; auto|].
  destruct O as [Hi [Ht| ->]]; auto.
Qed.
Print Assumptions C26_atomic_and_faithful.

(* several files: every file ends old-or-new whatever file the fault hits *)
Theorem C26_multi_file_each_old_or_new : forall suffix files i kf f,
  Forall (fun p => tmp (fst p) = None) files ->
  Forall2 (fun p s' => (tgt s' = tgt (fst p) \/ tgt s' = Some (new_file suffix (snd p) (fst p))) /\ inp s' = inp (fst p))
          files (fst (write_all suffix files i kf f)).
Proof.
  intros suffix files i kf f H. pose proof (write_all_each suffix files i kf f H) as W. clear H.
  induction W as [|p s' l l' [Hi [Ht| ->]] _ IH]; constructor; auto.
Qed.
Print Assumptions C26_multi_file_each_old_or_new.

Theorem C26_multi_file_after_fault_untouched : forall suffix s new r i kf f s',
  (safe_write suffix new (if i =? kf then f else FNone) s = Raised s' \/ safe_write suffix new (if i =? kf then f else FNone) s = Died s') ->
  write_all suffix ((s, new) :: r) i kf f = (s' :: map fst r, false).
Proof. intros suffix s new r i kf f s' [H|H]; cbn [write_all]; rewrite H; reflexivity. Qed.
Print Assumptions C26_multi_file_after_fault_untouched.

Theorem C26_multi_file_success : forall suffix files i kf,
  Forall (fun p => tmp (fst p) = None) files ->
  snd (write_all suffix files i kf FNone) = true /\
  Forall2 (fun p s' => tgt s' = Some (new_file suffix (snd p) (fst p)) /\ tmp s' = None) files (fst (write_all suffix files i kf FNone)).
Proof.
  intros suffix files i kf H. rewrite write_all_nofault by exact H. split; [reflexivity|].
  clear. induction files; constructor; auto.
Qed.
Print Assumptions C26_multi_file_success.
