(* C21 — Rule selection is exact and rules are independent.  The property theorems, from Proofs/GlobP.v and Proofs/RuleSelectP.v,
   and the check of the bundled registry by evaluation. *)
From SF Require Import Base.Prelude Model.Glob Model.RuleSelect Proofs.GlobP Proofs.RuleSelectP.
From SFGen Require Import Gen_rules.

(* glob matching is exactly its declarative meaning *)
Theorem C21_glob_correct : forall p s, gmatch p s = true <-> gsem p s.
Proof. exact gmatch_correct. Qed.
Print Assumptions C21_glob_correct.

(* for any register and selector lists: the selected rules are exactly the registered rules matched by the allow list
   (an empty allow list = every rule) and not matched by the deny list; a reference matches through the reference map
   (codes > names > groups > aliases) or, if it is not a key, as a glob over all keys *)
Theorem C21_select_spec : forall reg allow deny c,
  In c (select reg allow deny) <->
  In c (codes reg) /\ matches reg (match allow with [] => codes reg | _ => allow end) c /\ ~ matches reg deny c.
Proof. exact select_spec_lemma. Qed.
Print Assumptions C21_select_spec.

(* a reference without glob metacharacters matches only the key equal to it *)
Theorem C21_nometa_literal : forall name pat, has_meta pat = false -> fnmatch name pat = text_eqb pat name.
Proof. intros name pat H. unfold fnmatch, parse_pat. rewrite (parse_nometa _ _ (Nat.le_refl _) H). apply gmatch_lits. Qed.
Print Assumptions C21_nometa_literal.

(* On the registry of /repo as translated on this run: codes are unique, no key contains a glob metacharacter, no
   name/group/alias is shadowed by a higher-priority key, and every rule is in the group `all`. *)
Theorem C21_bundled_registry_ok : registry_ok gen_register = true.
Proof. vm_compute. reflexivity. Qed.
Print Assumptions C21_bundled_registry_ok.
