(* C22 — Exit codes reflect only unsuppressed failures.  The property theorems; the counters are turned into existence
   statements by the rewrite set `pos` of Proofs/GateP.v. *)
From SF Require Import Base.Prelude Model.Gate Proofs.GateP.

(* lint exits 1 exactly when some file has a violation that is neither suppressed nor a warning
   (or files were skipped and large_file_skip_fail is set); --nofail always exits 0 *)
Theorem C22_lint_exit_spec : forall fs skipped skip_fail,
  lint_exit fs false skipped skip_fail = b2e (spec_lint_fail fs || ((0 <? skipped) && skip_fail)).
Proof.
  intros fs skipped skip_fail. unfold lint_exit, spec_lint_fail. autorewrite with pos. do 2 f_equal.
  apply existsb_ext_in. intros f _. apply count_pos.
Qed.
Print Assumptions C22_lint_exit_spec.

Theorem C22_lint_nofail : forall fs skipped skip_fail, lint_exit fs true skipped skip_fail = 0.
Proof. reflexivity. Qed.
Print Assumptions C22_lint_nofail.

(* fix/format by path exits 1 exactly when an unsuppressed non-warning lint violation remains unfixable (no fix, or its
   fix was discarded because the file has a templating/parse error) or an unsuppressed TMP/PRS error blocks fixing *)
Theorem C22_paths_fix_exit_spec : forall fs feu skipped skip_fail,
  paths_fix_exit fs feu skipped skip_fail = b2e (spec_fix_fail fs feu || ((0 <? skipped) && skip_fail)).
Proof.
  intros fs feu skipped skip_fail. unfold paths_fix_exit, paths_fix_exit_with, unparsable_exit, spec_fix_fail.
  autorewrite with pos. rewrite <- 2 existsb_and_const, <- 2 existsb_or. do 2 f_equal.
  apply existsb_ext_in. intros f _. apply file_fail_eq.
Qed.
Print Assumptions C22_paths_fix_exit_spec.

(* warnings (and suppressed violations) never cause a non-zero exit *)
Theorem C22_warnings_never_fail : forall fs feu,
  (forall f v, In f fs -> In v f -> v_ign v = true \/ v_warn v = true) ->
  lint_exit fs false 0 false = 0 /\ paths_fix_exit fs feu 0 false = 0.
Proof.
  intros fs feu H. rewrite C22_lint_exit_spec, C22_paths_fix_exit_spec.
  assert (L : spec_lint_fail fs = false).
  { apply lint_fail_false. intros f v Hf Hv. unfold visible. destruct (H f v Hf Hv) as [-> | ->]; [reflexivity|apply andb_false_r]. }
  rewrite L. destruct (spec_fix_fail fs feu) eqn:F; [apply fix_fail_lint_fail in F; congruence|split; reflexivity].
Qed.
Print Assumptions C22_warnings_never_fail.

(* stdin fix follows the same rule whenever no unsuppressed fixable violation has its fix discarded ... *)
Theorem C22_stdin_exit_partial : forall f feu,
  (fixes_discarded f feu = true -> existsb (fun v => fixable v && visible v) f = false) ->
  fst (stdin_fix f feu) = paths_fix_exit [f] feu 0 false.
Proof. exact stdin_exit_agrees. Qed.
Print Assumptions C22_stdin_exit_partial.

(* ... and not otherwise (F6, open finding: "unfixable" is computed before the fixes are discarded; pinned by the test-suite) *)
Theorem C22_stdin_exit_refuted :
  exists f, fst (stdin_fix f false) = 0 /\ paths_fix_exit [f] false 0 false = 1.
Proof. exists [mkVS KPrs false true false; mkVS KLint true false false]. split; reflexivity. Qed.
Print Assumptions C22_stdin_exit_refuted.

(* regression witnesses of repaired defects (F15: warnings counted as unfixable; F17: templating error with
   fix_even_unparsable failed stdin only) *)
Theorem C22_f15_warning_counted_refuted :
  exists fs, paths_fix_exit_with discard_count_f15 fs false 0 false = 1 /\ spec_fix_fail fs false = false /\ spec_lint_fail fs = false.
Proof. exists [[mkVS KPrs false true false; mkVS KLint true false true]]. repeat split. Qed.
Print Assumptions C22_f15_warning_counted_refuted.

Theorem C22_f17_stdin_feu_templater_refuted :
  exists f, stdin_fix_f17 f true = 1 /\ paths_fix_exit [f] true 0 false = 0 /\ fst (stdin_fix f true) = 0.
Proof. exists [mkVS KTmp false false false]. repeat split. Qed.
Print Assumptions C22_f17_stdin_feu_templater_refuted.
