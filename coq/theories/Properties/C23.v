(* C23 — Reported violation positions are accurate.  The position record pos_dict and the property theorem about it, from Proofs/LineColP.v.
   PARTIAL: which anchor a rule chooses is not modelled.  Proved (on the line/column model of C31, tied to the code there):
   the machine-readable position record of a source range -- (start_line, start_col, start_offset, end_line, end_col, end_offset),
   TemplatedFile.source_position_dict_from_slice -- is internally consistent (line/col are the conversion of the offsets), lies in
   the file, and identifies the first character of the range: the reported line is 1 + the newlines before the start offset and the
   column the 1-based position in that line.  For a token in a literal (untemplated) region the start offset is the token's own
   first character (C01).  Checked on every violation of real lint runs in JSON / YAML / SARIF / annotation formats. *)
From SF Require Import Base.Prelude Model.LineCol Proofs.LineColP.
From Coq Require Import Lia.

(* source_position_dict_from_slice *)
Definition pos_dict (s : text) (a b : nat) : (nat * nat * nat) * (nat * nat * nat) :=
  ((fst (line_pos s a), snd (line_pos s a), a), (fst (line_pos s b), snd (line_pos s b), b)).

Theorem C23_position_record_exact : forall (s : text) (a b : nat), a <= b -> b <= length s ->
  let '((sl, sc, so), (el, ec, eo)) := pos_dict s a b in
  so = a /\ eo = b
  /\ sl = 1 + count_nl (firstn a s) /\ sc = 1 + length (last_line (firstn a s))
  /\ el = 1 + count_nl (firstn b s) /\ ec = 1 + length (last_line (firstn b s))
  /\ 1 <= sl <= 1 + count_nl s /\ 1 <= sc <= a + 1 /\ sl <= el.
Proof.
  intros s a b Hab Hb. unfold pos_dict.
  assert (Ha : a <= length s) by lia.
  pose proof (line_pos_spec_lemma s a Ha) as E1. pose proof (line_pos_spec_lemma s b Hb) as E2.
  pose proof (line_pos_bounds_lemma s a Ha) as [B1 B2].
  pose proof (count_nl_firstn_le s a b Hab) as Hm.
  rewrite E1 in B1, B2. rewrite E1, E2. cbn [fst snd] in *. unfold line_spec, col_spec in *. lia.
Qed.
Print Assumptions C23_position_record_exact.

Example C23_example : pos_dict [97;10;98;99;10;100]%N 2 4 = ((2, 1, 2), (2, 3, 4)).
Proof. reflexivity. Qed.
