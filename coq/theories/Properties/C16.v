(* C16 — Fixes preserve query results.  The property theorems with their proofs (case analyses on the rewritten tree).
   PARTIAL: proved, for every environment (row) and every expression, that the tree rewrites performed by ST01 (ELSE NULL removal),
   ST02 (CASE WHEN x IS NULL THEN y ELSE x END -> COALESCE), ST04 (nested CASE flattening) and CV02 (IFNULL/NVL -> COALESCE) preserve
   the value of the expression under a three-valued SQLite-style semantics; the semantics is validated against SQLite itself and
   the rewrites against the real rules' output.  Every other rule (layout, capitalisation, aliasing, conventions ...) is covered
   only by the search: generated executable queries are run in SQLite before and after fixing and must return the same multiset
   of rows.  Rules documented to change behaviour (ST06 column reordering, CV05 NULL comparison) are excluded, as in the property. *)
From SF Require Import Base.Prelude Model.SqlSem.

Lemma expr_eqb_eq a b : expr_eqb a b = true -> a = b.
Proof.
  destruct a, b; cbn [expr_eqb]; try discriminate.
  - destruct v, v0; cbn [value_eqb]; try discriminate; intros H; [reflexivity|apply Z.eqb_eq in H|apply Nat.eqb_eq in H]; congruence.
  - intros H. apply Nat.eqb_eq in H. congruence.
Qed.

Theorem C16_st01_else_null : forall rho e, eval rho (st01 e) = eval rho e.
Proof.
  intros rho e. destruct e; try reflexivity. destruct els as [e'|]; [|reflexivity]. cbn [st01].
  destruct (is_null_lit e') eqn:E; [|reflexivity]. destruct e'; try discriminate. destruct v; try discriminate.
  (* the two CASE loops differ only where they end: in eval rho (ELit VNull) and in VNull *)
  reflexivity.
Qed.
Print Assumptions C16_st01_else_null.

Theorem C16_st02_case_to_coalesce : forall rho e, eval rho (st02 e) = eval rho e.
Proof.
  intros rho e. destruct e; try reflexivity. cbn [st02].
  destruct whens as [|[c y] rest]; [reflexivity|]. destruct rest as [|w2 ws]; [|destruct c; reflexivity].
  destruct c; try reflexivity. destruct els as [x'|]; [|reflexivity].
  destruct (expr_eqb c x') eqn:E; [|reflexivity]. apply expr_eqb_eq in E. subst x'.
  cbn [eval]. destruct (eval rho c); cbn [truthy vbool Z.eqb negb]; try reflexivity.
  destruct (eval rho y); reflexivity.
Qed.
Print Assumptions C16_st02_case_to_coalesce.

Theorem C16_st04_flatten_nested_case : forall rho e, eval rho (st04 e) = eval rho e.
Proof.
  intros rho e. destruct e; try reflexivity. destruct els as [e'|]; [|reflexivity]. destruct e'; try reflexivity.
  cbn [st04 eval]. induction whens as [|[c r] rest IH]; cbn [app]; [reflexivity|].
  destruct (truthy (eval rho c)); [reflexivity|exact IH].
Qed.
Print Assumptions C16_st04_flatten_nested_case.

Theorem C16_cv02_ifnull_to_coalesce : forall rho e, eval rho (cv02 e) = eval rho e.
Proof.
  intros rho e. destruct e; try reflexivity. cbn [cv02 eval]. destruct (eval rho e2); reflexivity.
Qed.
Print Assumptions C16_cv02_ifnull_to_coalesce.

(* the rewrites fire on non-trivial trees *)
Example C16_st02_fires : st02 (ECase [(EIsNull (ECol 0), ECol 1)] (Some (ECol 0))) = ECoalesce [ECol 0; ECol 1].
Proof. reflexivity. Qed.
Example C16_st04_fires : st04 (ECase [(ECol 0, ELit (VInt 1))] (Some (ECase [(ECol 1, ELit (VInt 2))] (Some (ELit (VInt 3))))))
  = ECase [(ECol 0, ELit (VInt 1)); (ECol 1, ELit (VInt 2))] (Some (ELit (VInt 3))).
Proof. reflexivity. Qed.
