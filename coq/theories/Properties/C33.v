(* C33 — Violations are reported once and in source order. *)
From SF Require Import Base.Prelude Base.Sort Model.Dedup Proofs.DedupP.

(* For every list of raw violations (any number of loop passes / variants): the reported list has no two entries with the
   same source signature, is sorted by (line, column), contains only input violations, and loses no signature. *)
Theorem C33_reported_once_in_order : forall l : list viol,
  NoDup (map signature (dedup_sort l))
  /\ StronglySorted (le pos_leb) (dedup_sort l)
  /\ (forall w, In w (dedup_sort l) -> In w l)
  /\ (forall v, In v l -> exists w, In w (dedup_sort l) /\ signature w = signature v).
Proof. exact dedup_sort_spec. Qed.
Print Assumptions C33_reported_once_in_order.

(* The signature does not look at templated-space positions: two loop passes of one source violation are equal under it. *)
Theorem C33_signature_ignores_templated_pos : forall c l p r t1 t2,
  signature (mkViol c l p r t1) = signature (mkViol c l p r t2).
Proof. reflexivity. Qed.
Print Assumptions C33_signature_ignores_templated_pos.
