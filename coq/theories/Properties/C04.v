(* C04 — Parse, lint and fix never crash.
   PARTIAL: the templater (Jinja), the regex engine, the grammar combinators and the rule bodies are opaque components.  What is
   proved is (i) the exception funnel around them -- for EVERY combination of stage outcomes, if each component raises only its
   documented exception class then lint returns violations, and these classes are exactly the ones the funnel converts
   (C04_funnel_total_partial, C04_other_exception_propagates); (ii) tree construction never raises on a certified match result
   (C04_apply_never_raises, from C02).  That the real components raise nothing else is searched, not proved (harness/props/c04.py). *)
From SF Require Import Base.Prelude Model.Funnel Proofs.FunnelP Model.MatchResult Proofs.MatchResultP.

Theorem C04_funnel_total_partial : forall max_nodes t,
  templ_ok t = true -> exists vs, lint_string max_nodes t = Val vs.
Proof.
  intros mx t. unfold templ_ok, lint_string. intros H. destruct t as [[vs n]|x]; [apply lint_variants_total; exact H|].
  destruct x; try discriminate; eauto.
Qed.
Print Assumptions C04_funnel_total_partial.

Theorem C04_other_exception_propagates : forall mx k v r n,
  (v_lex v = Raise (XOther k) \/ (exists lv, v_lex v = Val lv /\ ((0 <? mx) && (mx <? v_tokens v)) = false /\ v_parse v = Raise (XOther k)))
  -> lint_string mx (Val (v :: r, n)) = Raise (XOther k).
Proof. exact other_exception_propagates. Qed.
Print Assumptions C04_other_exception_propagates.

Theorem C04_apply_never_raises : forall n m, wf_b n m = true -> exists ts, apply n m = Ok ts.
Proof. intros n m H. destruct (apply_lossless n m H) as [ts [E _]]. exists ts. exact E. Qed.
Print Assumptions C04_apply_never_raises.

(* the node-limit pre-check reports PRS and skips parsing; a fatal templater error is reported as TMP *)
Example C04_node_limit : lint_string 3 (Val ([{| v_lex := Val []; v_tokens := 10; v_parse := Raise (XOther 0); v_rules := [] |}], 0)) = Val [PRS].
Proof. reflexivity. Qed.
Example C04_fatal_tmp : lint_string 0 (Raise XTemplater) = Val [TMP].
Proof. reflexivity. Qed.
