(* C27 — Configuration precedence and isolation.
   Model: Model/Config.v (nested_combine, the loaders, FluffConfig.__init__/from_path, set_value and the inline-directive
   scanner, the per-file config of a lint run, and the same run with the functools caches as explicit state).
   `wfd d` = the keys of d are distinct at every level (what a Python dict is); `fs_wf f` = the pyproject.toml tables in f are.
   kind_at p d = None (nothing at path p) | Some None (a section) | Some (Some v) (the value v). *)
From SF Require Import Base.Prelude Model.Config Proofs.ConfigP.
From Coq Require Import String.

(* combine_rightmost: in nested_combine(d1..dn) every path shows what the LAST dict that has anything there shows
   (a value, or a section: a later section replaces an earlier value at the same path). *)
Theorem C27_combine_rightmost : forall (V : Type) (ds : list (dict V)) (R : dict V) (p : list key),
  Forall (wfd V) ds -> nested_combine V ds = Ok R ->
  kind_at V p R = last_some (map (kind_at V p) ds).
Proof. exact combine_rightmost. Qed.
Print Assumptions C27_combine_rightmost.

(* ... and the exact leaf-vs-dict behaviour: the only exception is the ValueError, raised exactly when some dict sets a
   VALUE at a path that the dicts before it, combined, hold as a SECTION (the other way round the section overwrites). *)
Theorem C27_combine_raises_iff : forall (V : Type) (ds : list (dict V)),
  Forall (wfd V) ds ->
  (forall e, nested_combine V ds = Err e -> e = EValue) /\
  (nested_combine V ds = Err EValue <->
   exists ds1 d ds2 p v, ds = ds1 ++ d :: ds2 /\ kind_at V p d = Some (Some v) /\
                         last_some (map (kind_at V p) ds1) = Some None).
Proof.
  intros V ds H. rewrite nested_combine_eq. split; [intros e; apply merge_err|]. rewrite (combine_error_from V ds [] H).
  split; intros (ds1 & d & ds2 & p & v & E); exists ds1, d, ds2, p, v; rewrite kind_at_empty, over_none_r in *; exact E.
Qed.
Print Assumptions C27_combine_raises_iff.

(* combine_assoc.  (a) Left-nested stages (load_config_file / load_config_at_path fold the files of a directory this way)
   are the flat combination, exceptions included. *)
Theorem C27_combine_assoc_prefix : forall (V : Type) (l1 l2 : list (dict V)),
  nested_combine V (l1 ++ l2) = (do r <- nested_combine V l1; nested_combine V (r :: l2)).
Proof.
  intros V l1 l2. rewrite !nested_combine_eq, concat_app, merge_app.
  destruct (merge V [] (List.concat l1)) as [r|e] eqn:E; cbn [bind]; [|reflexivity].
  rewrite nested_combine_eq. cbn [List.concat]. rewrite merge_app, merge_into_empty; [reflexivity|].
  exact (merge_nodup V _ [] _ (NoDup_nil _) E).
Qed.
Print Assumptions C27_combine_assoc_prefix.

(* (b) A stage in the middle (load_config_up_to_path combines one dict per directory, FluffConfig.__init__ combines
   defaults / that result / overrides): whenever the flat combination succeeds, combining any segment first gives the very
   same dict (values and key order). *)
Theorem C27_combine_assoc : forall (V : Type) (l1 l2 l3 : list (dict V)) (R : dict V),
  Forall (wfd V) l2 -> nested_combine V (l1 ++ l2 ++ l3) = Ok R ->
  exists m, nested_combine V l2 = Ok m /\ nested_combine V (l1 ++ m :: l3) = Ok R.
Proof. exact combine_assoc. Qed.
Print Assumptions C27_combine_assoc.

(* (c) so whenever both succeed they are the same dict, and show the same thing at every path. *)
Theorem C27_combine_assoc_observed : forall (V : Type) (l1 l2 l3 : list (dict V)) (m R R' : dict V) (p : list key),
  Forall (wfd V) l1 -> Forall (wfd V) l2 -> Forall (wfd V) l3 ->
  nested_combine V l2 = Ok m -> nested_combine V (l1 ++ m :: l3) = Ok R -> nested_combine V (l1 ++ l2 ++ l3) = Ok R' ->
  kind_at V p R = kind_at V p R'.
Proof.
  intros V l1 l2 l3 m R R' p _ H2 _ Hm HR HR'. destruct (combine_assoc V l1 l2 l3 R' H2 HR') as (m' & Hm' & HR2). congruence.
Qed.
Print Assumptions C27_combine_assoc_observed.

(* (d) "staged = flat" without the success hypothesis is FALSE of nested_combine: a stage can succeed where the flat
   combination raises (inside the stage a value is first replaced by a section).  Real-code reading: a directory whose
   setup.cfg sets x.y as a value and whose .sqlfluff sets x.y as a section loads fine below a parent that has x.y as a
   section, although nested_combine of the three files in precedence order raises ValueError.  (A quirk of the
   implementation's error behaviour, not a violation of the precedence statement; the harness replays it.) *)
Theorem C27_staged_equals_flat_unconditionally_refuted :
  exists (l1 l2 : list (dict nat)) (m R : dict nat),
    Forall (wfd nat) l1 /\ Forall (wfd nat) l2 /\
    nested_combine nat l2 = Ok m /\ nested_combine nat (l1 ++ [m]) = Ok R /\ nested_combine nat (l1 ++ l2) = Err EValue.
Proof.
  exists [[(lit "x", Dict [(lit "y", Dict [(lit "z", Leaf 1)])])]],
         [[(lit "x", Dict [(lit "y", Leaf 5)])]; [(lit "x", Dict [(lit "y", Dict [(lit "w", Leaf 2)])])]].
  eexists. eexists.
  split; [constructor; [apply wfdb_sound; vm_compute; reflexivity | constructor]|].
  split; [constructor; [apply wfdb_sound; vm_compute; reflexivity |
           constructor; [apply wfdb_sound; vm_compute; reflexivity | constructor]]|].
  split; [vm_compute; reflexivity|]. split; vm_compute; reflexivity.
Qed.
Print Assumptions C27_staged_equals_flat_unconditionally_refuted.

(* precedence.  For every file system f, environment e (home, XDG_CONFIG_HOME, working directory), root configuration rt
   (defaults, extra config path, ignore_local_config, CLI overrides) and sql file sf = (path, text): if the file's config E
   is produced at all, then at EVERY path p, E shows what the precedence order says (Model.Config.spec_kind):
     the last layer that has anything at p among
       defaults < [user appdir files < home files < files of the directories between home and the file
                   < files of the directories from the working directory down to the file's directory
                   (within a directory setup.cfg < tox.ini < pep8.ini < .sqlfluff < pyproject.toml) < the extra config file]
                < CLI overrides (under `core`),
     and then the file's own inline directives, in file order, on top
   ({"core": {}} stands in for the bracketed part when no config file sets anything, as FluffConfig.__init__ does). *)
Theorem C27_precedence : forall (V : Type) (coerce : text -> V) (is_none : V -> bool) (f : fsys V) (e : env) (rt : root V)
                                (sf : path * text) (E : dict V),
  fs_wf V f -> wfd V (r_defaults V rt) -> wfd V (r_overrides V rt) ->
  file_config V coerce is_none f e rt sf = Ok E ->
  exists configs,
    load_config_up_to_path V coerce f e (fst sf) (r_extra V rt) (r_ignore_local V rt) = Ok configs /\
    forall p, p <> [] -> kind_at V p E = spec_kind V coerce f e rt sf (is_nil configs) p.
Proof. exact precedence. Qed.
Print Assumptions C27_precedence.

(* what one inline directive does, used by spec_kind: `-- sqlfluff:q:v` sets q to the value v, empties everything below q,
   makes every proper prefix of q a section and leaves every other path alone. *)
Theorem C27_set_value_effect : forall (V : Type) (q : list key) (v : V) (d d' : dict V) (p : list key),
  set_value V q v d = Ok d' -> p <> [] ->
  kind_at V p d' = inline_effect V p (q, v) (kind_at V p d).
Proof. exact set_value_kind. Qed.
Print Assumptions C27_set_value_effect.

(* The dialect requirement (repaired in /repo 692586f; before, make_child_from_path demanded a dialect BEFORE the file's inline
   directives were read and this statement was refuted).  Linter.load_raw_file_and_config now builds the child config without
   demanding a dialect, applies the file's inline directives and only then calls verify_dialect_specified.  So, whenever the
   config with the inline directives applied exists, the file is accepted exactly when the EFFECTIVE configuration -- the
   precedence order of C27_precedence, inline directives included -- has a dialect; otherwise it is the SQLFluffUserError.
   In particular a dialect that only the file's own `-- sqlfluff:dialect:x` sets is honoured, and a file with no dialect
   anywhere is still rejected. *)
Theorem C27_dialect_required_after_inline : forall (V : Type) (coerce : text -> V) (is_none : V -> bool) (f : fsys V) (e : env)
                                                   (rt : root V) (sf : path * text) (E : dict V),
  fs_wf V f -> wfd V (r_defaults V rt) -> wfd V (r_overrides V rt) ->
  inline_config V coerce is_none f e rt sf = Ok E ->
  exists configs,
    load_config_up_to_path V coerce f e (fst sf) (r_extra V rt) (r_ignore_local V rt) = Ok configs /\
    file_config V coerce is_none f e rt sf =
      if dialect_ok V is_none (spec_kind V coerce f e rt sf (is_nil configs) [core; dialect_key]) then Ok E else Err ERuntime.
Proof.
  intros V coerce is_none f e rt sf E Hf Hd Ho H.
  destruct (precedence_inline V coerce is_none f e rt sf E Hf Hd Ho H) as (configs & Hu & Hk).
  exists configs. split; [exact Hu|]. unfold file_config. rewrite H. cbn [bind].
  rewrite verify_dialect_ok, (Hk [core; dialect_key]) by discriminate.
  destruct (dialect_ok V is_none _); reflexivity.
Qed.
Print Assumptions C27_dialect_required_after_inline.

(* The path pipeline and the string pipeline agree: linting a file by path is building its base config from the hierarchy
   (no dialect demanded yet) and then linting its text as a string on it (Linter.lint_string / stdin: copy of the config,
   inline directives, verify_dialect_specified). *)
Theorem C27_path_and_string_pipelines_agree : forall (V : Type) (coerce : text -> V) (is_none : V -> bool) (f : fsys V) (e : env)
                                                     (rt : root V) (sf : path * text),
  file_config V coerce is_none f e rt sf =
  (do base <- from_path V coerce is_none f e rt false (fst sf); string_lint_config V coerce is_none base (snd sf)).
Proof.
  intros. unfold file_config, inline_config, string_lint_config, string_config.
  destruct (from_path V coerce is_none f e rt false (fst sf)); reflexivity.
Qed.
Print Assumptions C27_path_and_string_pipelines_agree.

(* The former witness of the defect, now on the right side: no config file at all, defaults with dialect = None.
   With `-- sqlfluff:dialect:ansi` the file is accepted with dialect ansi; without it, it is rejected. *)
Theorem C27_inline_only_dialect_honoured :
  let isn := fun t => text_eqb t (lit "None") in
  let idc := fun t : text => t in
  let f : fsys text := [([], []); ([lit "p"], [])] in
  let e := mkEnv [] None [lit "p"] in
  let rt := mkRoot [(core, Dict [(dialect_key, Leaf (lit "None")); (lit "max_line_length", Leaf (lit "80"))])] None false [] in
  let q := ([lit "p"; lit "q.sql"], lit "-- sqlfluff:dialect:ansi" ++ [10%N] ++ lit "select 1" ++ [10%N]) in
  let r := ([lit "p"; lit "r.sql"], lit "select 1" ++ [10%N]) in
  fs_wf text f /\ wfd text (r_defaults text rt) /\ wfd text (r_overrides text rt) /\
  (exists E, file_config text idc isn f e rt q = Ok E /\ kind_at text [core; dialect_key] E = Some (Some (lit "ansi"))) /\
  file_config text idc isn f e rt r = Err ERuntime /\
  (exists E, inline_config text idc isn f e rt r = Ok E).
Proof.
  cbn zeta.
  split; [apply fs_wfb_sound; vm_compute; reflexivity|].
  split; [apply wfdb_sound; vm_compute; reflexivity|].
  split; [apply wfdb_sound; vm_compute; reflexivity|].
  split; [eexists; split; vm_compute; reflexivity|].
  split; [vm_compute; reflexivity|]. eexists; vm_compute; reflexivity.
Qed.
Print Assumptions C27_inline_only_dialect_honoured.

(* isolation.  (a) The config of a file is a function of the directories it is read from (Model.Config.relevant: the
   user config dirs, home, the chain of directories down to the file, the extra file) and of its own text: two file
   systems that agree there give the same config -- whatever nested configs other files have. *)
Theorem C27_isolation : forall (V : Type) (coerce : text -> V) (is_none : V -> bool) (f f' : fsys V) (e : env) (rt : root V)
                               (sf : path * text),
  (forall q, In q (relevant V f e (r_extra V rt) (fst sf)) -> assoc_path q f = assoc_path q f') ->
  file_config V coerce is_none f e rt sf = file_config V coerce is_none f' e rt sf.
Proof. exact isolation. Qed.
Print Assumptions C27_isolation.

(* (b) In a run over a sequence of files the i-th result is the config of the i-th file alone: it does not depend on the
   other files of the run, their inline directives, or the order. *)
Theorem C27_run_pointwise : forall (V : Type) (coerce : text -> V) (is_none : V -> bool) (f : fsys V) (e : env) (rt : root V)
                                   (files : list (path * text)) (i : nat),
  nth_error (run V coerce is_none f e rt files) i = option_map (file_config V coerce is_none f e rt) (nth_error files i).
Proof. intros. apply nth_error_map. Qed.
Print Assumptions C27_run_pointwise.

(* (c) The two functools caches (load_config_file_as_dict per file, load_config_at_path per directory), threaded through
   the run as explicit state from ANY state consistent with the file system (cold or warm), change no result, and leave
   a consistent state. *)
Theorem C27_cache_transparent : forall (V : Type) (coerce : text -> V) (is_none : V -> bool) (f : fsys V) (e : env) (rt : root V)
                                       (files : list (path * text)) (c : caches V),
  cache_ok V coerce f c ->
  exists c', run_c V coerce is_none f e rt files c = (run V coerce is_none f e rt files, c') /\ cache_ok V coerce f c'.
Proof. exact cache_transparent. Qed.
Print Assumptions C27_cache_transparent.

(* The hypotheses are satisfiable by a non-trivial hierarchy (values are raw texts, coerce = identity). *)
Module Ex.
  Definition L (s : string) : cfg text := Leaf (lit s).
  Definition home : path := [lit "h"].
  Definition proj : path := [lit "h"; lit "proj"].
  Definition sub : path := [lit "h"; lit "proj"; lit "a"].
  Definition other : path := [lit "h"; lit "proj"; lit "b"].
  Definition f : fsys text :=
    [ ([], []);
      (home, [(lit ".sqlfluff", FIni [(lit "sqlfluff", [(lit "dialect", lit "ansi"); (lit "max_line_length", lit "50")])])]);
      (proj, [(lit "setup.cfg", FIni [(lit "sqlfluff", [(lit "max_line_length", lit "55")])]);
              (lit ".sqlfluff", FIni [(lit "sqlfluff", [(lit "max_line_length", lit "60")]);
                                      (lit "sqlfluff:indentation", [(lit "tab_space_size", lit "2")])])]);
      (sub, [(lit "pyproject.toml",
              FToml [(lit "core", Dict [(lit "max_line_length", L "70")]);
                     (lit "rules", Dict [(lit "capitalisation", Dict [(lit "keywords", Dict [(lit "capitalisation_policy", L "upper")])])])])]);
      (other, [(lit ".sqlfluff", FIni [(lit "sqlfluff", [(lit "max_line_length", lit "99"); (lit "dialect", lit "tsql")])])]) ].
  Definition e : env := mkEnv home None proj.
  Definition defaults : dict text :=
    [(lit "core", Dict [(lit "dialect", L "None"); (lit "max_line_length", L "80"); (lit "verbose", L "0")]);
     (lit "indentation", Dict [(lit "tab_space_size", L "4")])].
  Definition rt : root text := mkRoot defaults None false [(lit "verbose", L "1")].
  Definition sf : path * text :=
    (sub ++ [lit "f.sql"], lit "-- sqlfluff:max_line_length:75" ++ [10%N] ++ lit "select 1" ++ [10%N]).
  Definition sf_other : path * text := (other ++ [lit "g.sql"], lit "select 2").
  Definition idc (t : text) : text := t.
  Definition isn (t : text) : bool := text_eqb t (lit "None").

  Definition get (p : list string) (r : res (dict text)) : option (option text) :=
    match r with Ok d => kind_at text (map lit p) d | Err _ => None end.

  Example wf_hyps : fs_wf text f /\ wfd text defaults /\ wfd text (r_overrides text rt).
  Proof.
    split; [apply fs_wfb_sound; vm_compute; reflexivity|]. split; apply wfdb_sound; vm_compute; reflexivity.
  Qed.

  (* the config sf is linted with, evaluated once for the examples below *)
  Definition cfg_sf : res (dict text) := Eval vm_compute in file_config text idc isn f e rt sf.
  Example cfg_sf_eq : file_config text idc isn f e rt sf = cfg_sf.
  Proof. vm_compute. reflexivity. Qed.

  (* inline 75 > pyproject 70 > .sqlfluff 60 > setup.cfg 55 > home 50 > default 80 *)
  Example ex_inline_wins : get ["core"; "max_line_length"]%string (file_config text idc isn f e rt sf) = Some (Some (lit "75")).
  Proof. rewrite cfg_sf_eq. reflexivity. Qed.
  Example ex_override_wins : get ["core"; "verbose"]%string (file_config text idc isn f e rt sf) = Some (Some (lit "1")).
  Proof. rewrite cfg_sf_eq. reflexivity. Qed.
  Example ex_home_below_project : get ["core"; "dialect"]%string (file_config text idc isn f e rt sf) = Some (Some (lit "ansi")).
  Proof. rewrite cfg_sf_eq. reflexivity. Qed.
  Example ex_toml_rules_condensed :
    get ["rules"; "capitalisation.keywords"; "capitalisation_policy"]%string (file_config text idc isn f e rt sf) = Some (Some (lit "upper")).
  Proof. rewrite cfg_sf_eq. reflexivity. Qed.
  (* the sibling directory's file sees neither the inline 75 nor the pyproject 70 of the first file, whatever the order *)
  Example ex_no_leak :
    map (get ["core"; "max_line_length"]%string) (run text idc isn f e rt [sf; sf_other; sf]) =
      [Some (Some (lit "75")); Some (Some (lit "99")); Some (Some (lit "75"))]
    /\ fst (run_c text idc isn f e rt [sf; sf_other; sf] (mkCaches [] [])) = run text idc isn f e rt [sf; sf_other; sf].
  Proof.
    split.
    - unfold run. cbn [map]. rewrite cfg_sf_eq. vm_compute. reflexivity.
    - destruct (C27_cache_transparent text idc isn f e rt [sf; sf_other; sf] _ (cache_ok_empty text idc f)) as (c' & H & _).
      rewrite H. reflexivity.
  Qed.
  (* the isolation hypothesis is satisfiable non-trivially: the sibling directory `other` (and its own 99 / tsql) is not among
     the places sf's config is read from, so any change there leaves sf's config alone *)
  Example ex_sibling_not_relevant :
    existsb (path_eqb other) (relevant text f e (r_extra text rt) (fst sf)) = false /\
    existsb (path_eqb sub) (relevant text f e (r_extra text rt) (fst sf)) = true.
  Proof. split; vm_compute; reflexivity. Qed.
  Example ex_spec_agrees :
    spec_kind text idc f e rt sf false (map lit ["core"; "max_line_length"]%string) = Some (Some (lit "75")) /\
    spec_kind text idc f e rt sf_other false (map lit ["core"; "dialect"]%string) = Some (Some (lit "tsql")).
  Proof. split; vm_compute; reflexivity. Qed.
End Ex.
