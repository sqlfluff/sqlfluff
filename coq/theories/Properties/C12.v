(* C12 — Fixes are lexically stable.
   PARTIAL: whether a rule's edit glues or splits tokens depends on the dialect's regexes and on the reflow engine, neither of which
   is modelled; the engine's own safeguard (re-parse validation) works on token lists and cannot see a merge that re-lexing the TEXT
   would produce.  What is proved is the comparator the monitor uses: two token sequences are accepted iff they have the same
   boundaries and kinds position by position (C12_comparator_exact), and that a fixed tree which is accepted is the re-lexed token
   sequence (so any merge or split is a rejection).  Every fix of the corpus is re-lexed and compared. *)
From SF Require Import Base.Prelude Model.TokenRel Proofs.TokenRelP.

Theorem C12_comparator_exact : forall a b : list tok, toks_eqb a b = true <-> a = b.
Proof. exact toks_eqb_eq. Qed.
Print Assumptions C12_comparator_exact.

(* two minus signs glued into a comment marker: different boundaries, rejected *)
Example C12_glue_rejected : toks_eqb [([45]%N, 1); ([45]%N, 1); ([53]%N, 2)] [([45;45;53]%N, 3)] = false.
Proof. reflexivity. Qed.
