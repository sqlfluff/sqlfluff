(* C13 — Fixing never makes a parsable file unparsable.
   PARTIAL: rules and apply_fixes (with its re-parse validation) are an oracle.  Proved for every rule set, loop limit and number of
   passes: the tree the fix loop returns is related to the input tree by any reflexive-transitive relation that every VALIDATED
   proposal respects -- in particular "parses without error whenever the input did", if apply_fixes' validity flag is truthful --
   and on reaching the loop limit the original tree is returned.  That the flag is truthful for the TEXT (a reparse of the written
   file succeeds; single same-class replace edits skip validation) is checked per run by re-rendering, re-lexing and re-parsing the
   fixed text. *)
From SF Require Import Base.Prelude Model.FixLoop Proofs.FixLoopP.

Theorem C13_loop_only_adopts_validated : forall (T F : Type) teq feq (R : T -> T -> Prop),
  (forall t, R t t) -> (forall a b c, R a b -> R b c -> R a c) ->
  forall limit rules t0, respects T F R rules -> R t0 (fst (lint_fix T F teq feq limit rules t0)).
Proof. exact lint_fix_rel. Qed.
Print Assumptions C13_loop_only_adopts_validated.

Theorem C13_limit_rollback : forall (T F : Type) teq feq limit rules t0,
  snd (lint_fix T F teq feq limit rules t0) = true -> fst (lint_fix T F teq feq limit rules t0) = t0.
Proof. exact limit_rollback. Qed.
Print Assumptions C13_limit_rollback.

(* an invalid proposal is never adopted: a rule that would break the file (valid = false) leaves the tree alone *)
Example C13_invalid_not_adopted :
  lint_fix nat nat Nat.eqb Nat.eqb 10 [{| r_post := false; r_fixcompat := true; propose := fun t => if t =? 0 then Some (1, 7, false) else None |}] 0 = (0, false).
Proof. reflexivity. Qed.
Example C13_valid_adopted :
  lint_fix nat nat Nat.eqb Nat.eqb 10 [{| r_post := false; r_fixcompat := true; propose := fun t => if t =? 0 then Some (1, 7, true) else None |}] 0 = (7, false).
Proof. reflexivity. Qed.
