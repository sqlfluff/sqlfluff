(* C20 — noqa directives suppress exactly the specified violations.  The property theorems, instances of mask_with_fst
   (Proofs/NoQaP.v), which holds for any reading of `covers`. *)
From SF Require Import Base.Prelude Model.NoQa Proofs.NoQaP.

(* What the mask does, for every directive list and violation list (any interleaving): a violation survives iff no plain
   directive on its line names its rule (or names none) and the most recent range directive at or before its line that
   `covers` it is not a disable -- with `covers` as the code computes it. *)
Theorem C20_mask_characterisation : forall ds vs,
  fst (mask ds vs) = filter (fun v => negb (hidden_single ds v) && negb (hidden_range covers ds v)) vs.
Proof. exact (mask_with_fst covers). Qed.
Print Assumptions C20_mask_characterisation.

(* The property itself: covers = "names the rule, or names no rule". *)
Theorem C20_mask_spec : forall ds vs,
  fst (mask ds vs) = filter (fun v => negb (hidden_spec ds v)) vs.
Proof.
  intros ds vs. unfold mask. rewrite mask_with_fst. apply filter_ext. intros v.
  unfold hidden_spec. rewrite negb_orb. reflexivity.
Qed.
Print Assumptions C20_mask_spec.

(* Regression witness for the repaired defect: the falsy-tuple reading of "covers" violates the property. *)
Theorem C20_falsy_covers_refuted :
  exists ds vs, fst (mask_with covers_falsy ds vs) <> filter (fun v => negb (hidden_spec ds v)) vs.
Proof. exists [mkDir 0 1 (Some []) Disable], [mkV 1 2]. discriminate. Qed.
Print Assumptions C20_falsy_covers_refuted.
