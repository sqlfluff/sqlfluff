(* C05 — No rule fails internally.  The property theorem, read off the shape of a rule run's output (crawl_shape, Proofs/FunnelP.v).
   PARTIAL: rule bodies (~90 classes) are not modelled.  Proved: the crawl funnel -- for every sequence of _eval outcomes an
   "Unexpected exception" violation appears in a rule's output iff some _eval call raised, and at most one per rule run -- which
   makes the monitor (no such violation over all rules x dialects x inputs) sound AND complete with respect to _eval. *)
From SF Require Import Base.Prelude Model.Funnel Proofs.FunnelP.

Theorem C05_unexpected_iff_eval_raised : forall rule evals vs,
  crawl rule evals [] = Val vs ->
  existsb is_unexpected vs = existsb raised evals /\ length (filter is_unexpected vs) <= 1.
Proof.
  intros rule evals vs H. destruct (crawl_shape rule evals [] vs H) as [n ->]. cbn [app].
  destruct (repeat_lint_no_unexpected rule n) as [E L]. rewrite existsb_app, filter_app, L, E.
  destruct (existsb raised evals); cbn; split; auto.
Qed.
Print Assumptions C05_unexpected_iff_eval_raised.

Example C05_example : crawl 7 [Val 2; Raise (XOther 1); Val 5] [] = Val [LINT 7; LINT 7; UNEXPECTED 7].
Proof. reflexivity. Qed.
