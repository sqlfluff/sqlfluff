(* C10 — Fixes never edit template code.  The property theorem, an instance of fix_source_frame (Proofs/FrameP.v).
   PARTIAL: proved for the patch-application layer (merge_source_patches + the slicer/builder, Model/Patch.v): for every set of patch
   buffers (all rules, all variants), every source and every ascending list of protected source ranges (template tags, expressions,
   comments, placeholder parameters): if no APPLIED patch overlaps a protected range, every protected range's text is in the fixed
   source unchanged and in the original order.  That the patches which real rules produce avoid template code (the filter in
   generate_source_patches / LintFix.has_template_conflicts, and JJ01's deliberate exception) is checked per run on the real patch
   lists (the hypothesis is evaluated on them) and end to end on the fixed text.  Source-only-slice handling of the slicer is under
   correspondence (C30) but the theorem is stated for the slicer without source-only slices. *)
From SF Require Import Base.Prelude Model.Patch Proofs.FrameP.

Theorem C10_protected_ranges_survive : forall (bufs : list (list patch)) (src : text) (rs : list (nat * nat)),
  Forall (fun p => p_start p <= p_stop p /\ p_stop p <= length src) (concat bufs) ->
  ranges_ok 0 rs ->
  Forall (fun ab => Forall (avoids (fst ab) (snd ab)) (applied_from 0 (merge bufs))) rs ->
  in_order (map (fun ab => substr src (fst ab) (snd ab)) rs) (fix_source (merge bufs) [] src).
Proof. exact fix_source_frame. Qed.
Print Assumptions C10_protected_ranges_survive.

(* the hypothesis is necessary: a patch overlapping half of a tag destroys it *)
Example C10_overlap_destroys_tag :
  fix_source (merge [[mkPatch 2 5 [120]%N]]) [] [97;98;123;123;120;125;125]%N = [97;98;120;125;125]%N.
Proof. reflexivity. Qed.
Example C10_example :
  in_order [[123;123;120;125;125]%N] (fix_source (merge [[mkPatch 0 2 [65;66]%N]]) [] [97;98;123;123;120;125;125]%N).
Proof. apply (io_cons [123;123;120;125;125]%N [] [65;66]%N []). constructor. Qed.
