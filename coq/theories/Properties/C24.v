(* C24 — Parallel and serial runs agree (bookkeeping). *)
From SF Require Import Base.Prelude Base.Sort Model.Runner Proofs.RunnerP.

(* For any completion order of the workers and any order of the given paths (any permutation of the per-file outcomes,
   distinct files): identical violation totals, skipped count, per-file records (sorted by path) and set of files written,
   hence identical exit codes. *)
Theorem C24_aggregate_perm : forall l l' : list outcome,
  Permutation l l' -> NoDup (map o_path l) -> aggregate l = aggregate l'.
Proof. exact aggregate_perm. Qed.
Print Assumptions C24_aggregate_perm.

Theorem C24_exit_perm : forall (l l' : list outcome) skip_fail,
  Permutation l l' -> NoDup (map o_path l) -> agg_lint_exit (aggregate l) skip_fail = agg_lint_exit (aggregate l') skip_fail.
Proof. intros l l' sf Hp Hn. rewrite (aggregate_perm l l' Hp Hn). reflexivity. Qed.
Print Assumptions C24_exit_perm.
