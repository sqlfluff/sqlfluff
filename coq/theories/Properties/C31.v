(* C31 — Offset-to-line/column conversion is exact. *)
From SF Require Import Base.Prelude Model.LineCol Proofs.LineColP.

(* For any text and any offset in it: line = 1 + #newlines before the offset,
   column = 1-based position within its line (the same function serves source and rendered text). *)
Theorem C31_line_pos_spec : forall (s : text) (p : nat), p <= length s ->
  line_pos s p = (1 + count_nl (firstn p s), 1 + length (last_line (firstn p s))).
Proof. exact line_pos_spec_lemma. Qed.
Print Assumptions C31_line_pos_spec.

Theorem C31_line_pos_in_file : forall (s : text) (p : nat), p <= length s ->
  1 <= fst (line_pos s p) <= 1 + count_nl s /\ 1 <= snd (line_pos s p) <= p + 1.
Proof. exact line_pos_bounds_lemma. Qed.
Print Assumptions C31_line_pos_in_file.

(* infer_next_position agrees with recomputing the position from scratch. *)
Theorem C31_infer_next_spec : forall pre raw post : text,
  line_pos (pre ++ raw ++ post) (length pre + length raw)
  = infer_next raw (line_pos (pre ++ raw ++ post) (length pre)).
Proof. exact infer_next_lemma. Qed.
Print Assumptions C31_infer_next_spec.
