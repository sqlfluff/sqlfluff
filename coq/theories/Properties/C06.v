(* C06 — Parsing is deterministic and unaffected by parser optimisations.
   PARTIAL: the grammar combinators are abstract outcomes here.  Proved: exactly when first-token pruning and the parse cache are
   invisible -- pruning, for every option list, terminator set and position, if every pruned option would have matched nothing
   (completeness of simple()); the cache, for every request history, if the part of the context the key omits does not influence
   the match -- and that neither condition can be dropped (_refuted examples).  That the real grammars meet the two conditions
   is validated per parse by differential runs (cache off, pruning off, other histories). *)
From SF Require Import Base.Prelude Model.ParseOpt Proofs.ParseOptP.

Theorem C06_prune_sound : forall idx max_idx has_terms next_code term_at nseg opts,
  idx < max_idx -> prune_safe idx opts ->
  longest_match idx max_idx has_terms next_code term_at nseg true opts
  = longest_match idx max_idx has_terms next_code term_at nseg false opts.
Proof. intros. apply prune_sound; assumption. Qed.
Print Assumptions C06_prune_sound.

Theorem C06_prune_needs_completeness_refuted : exists idx max_idx ht nc ta n opts,
  longest_match idx max_idx ht nc ta n true opts <> longest_match idx max_idx ht nc ta n false opts.
Proof. do 7 eexists. exact prune_unsound_example. Qed.
Print Assumptions C06_prune_needs_completeness_refuted.

Theorem C06_cache_transparent : forall (K C V : Type) keq (f : K -> C -> V),
  (forall a b, keq a b = true <-> a = b) ->
  forall m reqs, cache_ok K C V keq f m reqs -> key_determines K C V f reqs ->
  run_cached K C V keq f m reqs = run_fresh K C V f reqs.
Proof. intros. apply cache_transparent; assumption. Qed.
Print Assumptions C06_cache_transparent.

Theorem C06_cache_needs_key_determines_refuted : exists (f : nat -> nat -> nat) reqs,
  run_cached nat nat nat Nat.eqb f [] reqs <> run_fresh nat nat nat f reqs.
Proof. do 2 eexists. exact cache_not_transparent_example. Qed.
Print Assumptions C06_cache_needs_key_determines_refuted.

(* the hypotheses are satisfiable: an empty cache and a trace whose repeated key sees the same context *)
Example C06_example : cache_ok nat nat nat Nat.eqb (fun k c => k + c) [] [(1, 0); (2, 3); (1, 0)]
                      /\ key_determines nat nat nat (fun k c => k + c) [(1, 0); (2, 3); (1, 0)].
Proof.
  split.
  - intros k c v _ H. discriminate H.
  - intros k c c' H1 H2. cbn [In] in H1, H2.
    destruct H1 as [H1|[H1|[H1|[]]]]; destruct H2 as [H2|[H2|[H2|[]]]]; inversion H1; inversion H2; subst; try reflexivity; discriminate.
Qed.
