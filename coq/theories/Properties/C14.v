(* C14 — Layout fixes change only whitespace.  The property theorems, from Proofs/TokenRelP.v and lint_fix_rel (Proofs/FixLoopP.v).
   PARTIAL: the layout rules / reflow engine are an oracle.  Proved: "only whitespace changed" (same code-token texts in order, same
   multiset of comments) is an equivalence with a correct boolean checker, and it lifts through the whole fix loop: if every
   validated proposal of the enabled rules satisfies it, so does the final tree w.r.t. the input tree, for any number of passes,
   both phases and any loop limit.  Whether each layout rule's proposals satisfy it is checked on every adopted step of real runs
   (the checker is evaluated on the real before/after token lists) and on the final text. *)
From SF Require Import Base.Prelude Model.FixLoop Proofs.FixLoopP Model.TokenRel Proofs.TokenRelP.

Theorem C14_ws_only_equivalence :
  (forall a, ws_only a a) /\ (forall a b, ws_only a b -> ws_only b a) /\ (forall a b c, ws_only a b -> ws_only b c -> ws_only a c).
Proof. split; [exact ws_only_refl|split; [exact ws_only_sym|exact ws_only_trans]]. Qed.
Print Assumptions C14_ws_only_equivalence.

Theorem C14_checker_correct : forall a b, ws_only_b a b = true <-> ws_only a b.
Proof. exact ws_only_b_sound. Qed.
Print Assumptions C14_checker_correct.

Theorem C14_ws_only_through_loop : forall (T F : Type) teq feq (leaves : T -> list tk) limit rules t0,
  respects T F (fun s t => ws_only (leaves s) (leaves t)) rules ->
  ws_only (leaves t0) (leaves (fst (lint_fix T F teq feq limit rules t0))).
Proof.
  intros T F teq feq leaves limit rules t0 H.
  apply (lint_fix_rel T F teq feq (fun s t => ws_only (leaves s) (leaves t))); [intros t; apply ws_only_refl| |exact H].
  intros a b c; apply ws_only_trans.
Qed.
Print Assumptions C14_ws_only_through_loop.

Example C14_example : ws_only_b [Code [97]%N; Ws [32]%N; Comment [45;45]%N; Code [98]%N] [Code [97]%N; Code [98]%N; Ws [10]%N; Comment [45;45]%N] = true.
Proof. reflexivity. Qed.
Example C14_example_neg : ws_only_b [Code [97]%N; Code [98]%N] [Code [97;98]%N] = false.
Proof. reflexivity. Qed.
