(* C01 — Lexing is lossless, ordered and total.  The property theorems, from the loop invariant of Proofs/LexerP.v (lex_inv,
   lex_total) and slices_tile.
   PARTIAL: the regex engine is an oracle (per position, which matcher matches and how its match is subdivided; the harness
   tabulates it with the real matcher objects) and the source-position assignment for templated files (_iter_segments) is
   monitored on real outputs, not modelled. *)
From SF Require Import Base.Prelude Model.Lexer Proofs.LexerP.
From Coq Require Import Lia.

(* For every text length, matcher table and oracle whose elements are non-empty and stay inside the text: whatever the lexer loop
   returns tiles the rendered text exactly -- elements are non-empty, contiguous, increasing and cover [0, n) -- so the tokens
   concatenate to the rendered SQL and nothing is dropped or duplicated. *)
Theorem C01_lex_lossless_contiguous : forall n mt lastm,
  (forall p els, p < n -> In els (mt p) -> els_ok n p els) ->
  (forall p, p < n -> els_ok n p (lastm p)) ->
  forall fuel els, lex n mt lastm fuel 0 [] = Ok els ->
  tiles 0 n (slices 0 els).
Proof.
  intros n mt lastm H1 H2 fuel els H.
  destruct (lex_inv n mt lastm H1 H2 fuel 0 [] els (inv_start n) H) as [Hpos Hsum].
  rewrite <- Hsum. apply (slices_tile els 0 Hpos).
Qed.
Print Assumptions C01_lex_lossless_contiguous.

(* Totality: if wherever the table matchers give up the last-resort matcher yields something (C29 proves this for every bundled
   dialect), lexing returns -- no "Fatal. Unable to lex" and the loops terminate within n+1 rounds. *)
Theorem C01_lex_total : forall n mt lastm,
  (forall p els, p < n -> In els (mt p) -> els_ok n p els) ->
  (forall p, p < n -> els_ok n p (lastm p)) ->
  (forall p, p < n -> first_match (mt p) = None -> lastm p <> []) ->
  exists els, lex n mt lastm (S n) 0 [] = Ok els.
Proof.
  intros n mt lastm H1 H2 H3. apply (lex_total n mt lastm H1 H2 H3 (S n) 0 [] (inv_start n)). lia.
Qed.
Print Assumptions C01_lex_total.

Example C01_example : lex 5 (fun p => if p =? 0 then [[]; [2; 1]] else []) (fun p => [5 - p]) 6 0 [] = Ok [2; 1; 2].
Proof. reflexivity. Qed.
