(* Stable insertion sort (models Python's sorted(key=...), which is stable). *)
From SF Require Import Base.Prelude.
From Coq Require Export Sorting.Sorted Sorting.Permutation.

Section Sort.
  Context {A : Type} (leb : A -> A -> bool).

  (* x came earlier in the input than everything in l: put it before the first y with x <= y *)
  Fixpoint insert (x : A) (l : list A) : list A :=
    match l with
    | [] => [x]
    | y :: r => if leb x y then x :: l else y :: insert x r
    end.

  Fixpoint ssort (l : list A) : list A :=
    match l with
    | [] => []
    | x :: r => insert x (ssort r)
    end.

  (* in a file that imports this one, the bare name `le` is this relation, not Peano's *)
  Definition le (a b : A) : Prop := leb a b = true.

  Hypothesis leb_total : forall a b, leb a b = true \/ leb b a = true.
  Hypothesis leb_trans : forall a b c, leb a b = true -> leb b c = true -> leb a c = true.

  Lemma insert_perm x l : Permutation (x :: l) (insert x l).
  Proof.
    induction l as [|y r IH]; cbn [insert]; [apply Permutation_refl|].
    destruct (leb x y); [apply Permutation_refl|].
    eapply Permutation_trans; [apply perm_swap|]. apply perm_skip. exact IH.
  Qed.

  Lemma ssort_perm l : Permutation l (ssort l).
  Proof.
    induction l as [|x r IH]; cbn [ssort]; [apply Permutation_refl|].
    eapply Permutation_trans; [apply perm_skip; exact IH|apply insert_perm].
  Qed.

  Lemma insert_sorted x l : StronglySorted le l -> StronglySorted le (insert x l).
  Proof.
    induction l as [|y r IH]; intros Hs; cbn [insert].
    - constructor; [constructor|constructor].
    - inversion Hs as [|? ? Hr Hall]; subst.
      destruct (leb x y) eqn:E.
      + constructor; [exact Hs|]. constructor; [exact E|].
        eapply Forall_impl; [|exact Hall]. intros z Hz. eapply leb_trans; [exact E|exact Hz].
      + constructor; [apply IH; exact Hr|].
        assert (Hyx : le y x) by (destruct (leb_total x y) as [H|H]; [congruence|exact H]).
        eapply Permutation_Forall; [apply insert_perm|]. constructor; assumption.
  Qed.

  Lemma ssort_sorted l : StronglySorted le (ssort l).
  Proof. induction l as [|x r IH]; cbn [ssort]; [constructor|apply insert_sorted; exact IH]. Qed.

  Lemma ssort_in x l : In x (ssort l) <-> In x l.
  Proof.
    split; intros H.
    - eapply Permutation_in; [apply Permutation_sym, ssort_perm|exact H].
    - eapply Permutation_in; [apply ssort_perm|exact H].
  Qed.

  Lemma ssort_sorted_id l : StronglySorted le l -> ssort l = l.
  Proof.
    induction 1 as [|x l _ IH Hx]; cbn [ssort]; [reflexivity|]. rewrite IH.
    destruct Hx as [|y r Hy _]; cbn [insert]; [reflexivity|]. rewrite Hy. reflexivity.
  Qed.

  (* two sorted lists with the same elements are equal, where the order cannot tell two distinct elements apart *)
  Lemma sorted_perm_eq : forall l l' : list A,
    (forall a b, In a l -> In b l -> leb a b = true -> leb b a = true -> a = b) ->
    StronglySorted le l -> StronglySorted le l' -> Permutation l l' -> l = l'.
  Proof.
    induction l as [|x l IH]; intros l' Hanti Hs Hs' Hp.
    - apply Permutation_nil in Hp. subst; reflexivity.
    - destruct l' as [|y l']; [apply Permutation_sym, Permutation_nil in Hp; discriminate|].
      inversion Hs as [|? ? Hsl Hx]. inversion Hs' as [|? ? Hsl' Hy]; subst.
      assert (Exy : x = y).
      { assert (Hyin : In y (x :: l)) by (eapply Permutation_in; [apply Permutation_sym; exact Hp|left; reflexivity]).
        assert (Hxin : In x (y :: l')) by (eapply Permutation_in; [exact Hp|left; reflexivity]).
        destruct Hyin as [->|Hyl]; [reflexivity|]. destruct Hxin as [->|Hxl']; [reflexivity|].
        rewrite Forall_forall in Hx, Hy.
        apply Hanti; [left; reflexivity|right; exact Hyl|apply Hx; exact Hyl|apply Hy; exact Hxl']. }
      subst y. f_equal. apply IH; [|exact Hsl|exact Hsl'|eapply Permutation_cons_inv; exact Hp].
      intros a b Ha Hb. apply Hanti; right; assumption.
  Qed.

  Lemma ssort_perm_eq l l' :
    (forall a b, In a l -> In b l -> leb a b = true -> leb b a = true -> a = b) ->
    Permutation l l' -> ssort l = ssort l'.
  Proof.
    intros Hanti Hp. apply sorted_perm_eq; try apply ssort_sorted.
    - intros a b Ha Hb. apply Hanti; apply ssort_in; assumption.
    - rewrite <- 2 ssort_perm. exact Hp.
  Qed.
End Sort.

Section Sort2.
  Context {A B : Type} (lebA : A -> A -> bool) (lebB : B -> B -> bool) (R : A -> B -> Prop).
  Hypothesis R_leb : forall a b a' b', R a b -> R a' b' -> lebA a a' = lebB b b'.

  Lemma Forall2_insert a b l1 l2 : R a b -> Forall2 R l1 l2 -> Forall2 R (insert lebA a l1) (insert lebB b l2).
  Proof.
    intros Hab HF. induction HF as [|x y l1 l2 Hxy HF IH]; cbn [insert]; [repeat constructor; exact Hab|].
    rewrite (R_leb _ _ _ _ Hab Hxy). destruct (lebB b y); repeat constructor; assumption.
  Qed.

  Lemma Forall2_ssort l1 l2 : Forall2 R l1 l2 -> Forall2 R (ssort lebA l1) (ssort lebB l2).
  Proof. induction 1; cbn [ssort]; [constructor|apply Forall2_insert; assumption]. Qed.
End Sort2.

(* Orders that compare a numeric key.  The models' orders of this kind (NoQa.line_leb, Runner.rec_leb, Runner.wr_leb) are
   instances by computation, so these lemmas apply to them as they stand. *)
Section ByKey.
  Context {A : Type} (key : A -> nat).
  Definition by_key (a b : A) : bool := key a <=? key b.

  Lemma by_key_total a b : by_key a b = true \/ by_key b a = true.
  Proof. unfold by_key. rewrite !Nat.leb_le. apply Nat.le_ge_cases. Qed.

  Lemma by_key_trans a b c : by_key a b = true -> by_key b c = true -> by_key a c = true.
  Proof. unfold by_key. rewrite !Nat.leb_le. apply Nat.le_trans. Qed.

  Lemma by_key_sorted l : StronglySorted (le by_key) (ssort by_key l).
  Proof. apply ssort_sorted; [exact by_key_total|exact by_key_trans]. Qed.

  Lemma by_key_perm_eq l l' : NoDup (map key l) -> Permutation l l' -> ssort by_key l = ssort by_key l'.
  Proof.
    intros Hn. apply ssort_perm_eq; [exact by_key_total|exact by_key_trans|].
    intros a b Ha Hb H1 H2. assert (E : key a = key b) by (apply Nat.le_antisymm; apply Nat.leb_le; assumption).
    induction l as [|x l IH]; [destruct Ha|]. inversion Hn as [|? ? Hx Hl].
    destruct Ha as [->|Ha], Hb as [->|Hb]; [reflexivity| | |apply IH; assumption].
    - exfalso. apply Hx. rewrite E. apply in_map; exact Hb.
    - exfalso. apply Hx. rewrite <- E. apply in_map; exact Ha.
  Qed.
End ByKey.

(* Orders that compare two numeric keys lexicographically (Patch.key_leb, Dedup.pos_leb: instances by computation). *)
Section ByKeys.
  Context {A : Type} (k1 k2 : A -> nat).
  Definition by_keys (a b : A) : bool := (k1 a <? k1 b) || ((k1 a =? k1 b) && (k2 a <=? k2 b)).

  Lemma by_keys_spec a b : by_keys a b = true <-> k1 a < k1 b \/ (k1 a = k1 b /\ k2 a <= k2 b).
  Proof. unfold by_keys. rewrite orb_true_iff, andb_true_iff, Nat.ltb_lt, Nat.eqb_eq, Nat.leb_le. reflexivity. Qed.

  Lemma by_keys_total a b : by_keys a b = true \/ by_keys b a = true.
  Proof.
    rewrite !by_keys_spec. destruct (Nat.lt_trichotomy (k1 a) (k1 b)) as [H|[H|H]]; [auto| |auto].
    rewrite H. destruct (Nat.le_ge_cases (k2 a) (k2 b)); auto.
  Qed.

  Lemma by_keys_trans a b c : by_keys a b = true -> by_keys b c = true -> by_keys a c = true.
  Proof.
    rewrite !by_keys_spec. intros [H1|[E1 H1]] [H2|[E2 H2]].
    - left. exact (Nat.lt_trans _ _ _ H1 H2).
    - left. rewrite <- E2. exact H1.
    - left. rewrite E1. exact H2.
    - right. split; [exact (eq_trans E1 E2)|exact (Nat.le_trans _ _ _ H1 H2)].
  Qed.

  Lemma by_keys_sorted l : StronglySorted (le by_keys) (ssort by_keys l).
  Proof. apply ssort_sorted; [exact by_keys_total|exact by_keys_trans]. Qed.
End ByKeys.

(* Permutations of flat_map (here rather than in Base/Lists.v, which does not load Permutation). *)
Lemma partition_perm {A B} (p : A -> bool) (f : A -> list B) l :
  Permutation (flat_map (fun c => if p c then f c else []) l ++ flat_map (fun c => if negb (p c) then f c else []) l)
              (flat_map f l).
Proof.
  induction l as [|x l IH]; [constructor|]. cbn [flat_map]. destruct (p x); cbn [negb app].
  - rewrite <- app_assoc. apply Permutation_app_head. exact IH.
  - rewrite app_assoc. etransitivity; [apply Permutation_app_tail; apply Permutation_app_comm|].
    rewrite <- app_assoc. apply Permutation_app_head. exact IH.
Qed.

Lemma flat_map_perm {A B} (f g : A -> list B) l :
  (forall x, In x l -> Permutation (f x) (g x)) -> Permutation (flat_map f l) (flat_map g l).
Proof.
  induction l as [|x l IH]; intros H; [constructor|]. cbn [flat_map].
  apply Permutation_app; [apply H; left; reflexivity|]. apply IH. intros y Hy. apply H. right. exact Hy.
Qed.
