(* Shared imports and the vocabulary of the models: texts, results.  Stdlib only; the list facts are in Base/Lists.v.
   Lia is left to the files that use it, and ZifyBool, ZifyNat and ZifyN are loaded nowhere: once one of these is loaded, by a file
   or by anything it requires, every lia call translates all boolean and N/nat operations in its context. *)
From Coq Require Export List Bool PeanoNat BinNat BinInt.
From SF Require Export Base.Lists.
Export ListNotations.

(* Text is a list of Unicode code points. *)
Definition cp := N.
Definition text := list cp.
Definition nl : cp := 10%N.

Definition is_nl (c : cp) : bool := N.eqb c nl.

Fixpoint count_nl (s : text) : nat :=
  match s with
  | [] => 0
  | c :: r => if is_nl c then S (count_nl r) else count_nl r
  end.

Lemma count_nl_app a b : count_nl (a ++ b) = count_nl a + count_nl b.
Proof. induction a as [|c a IH]; cbn [count_nl app]; [reflexivity|]. destruct (is_nl c); cbn [Nat.add]; congruence. Qed.

(* The text after the last newline (the whole text when there is none). *)
Fixpoint last_line (s : text) : text :=
  match s with
  | [] => []
  | c :: r => if Nat.eqb (count_nl r) 0 then (if is_nl c then r else c :: r) else last_line r
  end.

Fixpoint text_eqb (a b : text) : bool :=
  match a, b with
  | [], [] => true
  | x :: a', y :: b' => N.eqb x y && text_eqb a' b'
  | _, _ => false
  end.

Lemma text_eqb_eq a b : text_eqb a b = true <-> a = b.
Proof. exact (list_eqb_eq N.eqb N.eqb_eq a b). Qed.

Lemma text_eqb_refl a : text_eqb a a = true.
Proof. apply text_eqb_eq. reflexivity. Qed.

Lemma text_eqb_neq a b : a <> b -> text_eqb a b = false.
Proof. intros H. destruct (text_eqb a b) eqn:E; [apply text_eqb_eq in E; contradiction|reflexivity]. Qed.

Lemma text_eqb_spec a b : reflect (a = b) (text_eqb a b).
Proof. apply iff_reflect. symmetry. apply text_eqb_eq. Qed.

(* Result type with one error kind per Python exception class we distinguish. *)
Inductive ekind := EAssert | EIndex | EValue | EKey | ESQLParse | ESQLLex | ESkipFile | ETemplater | EFuel | ERuntime.
Inductive res (A : Type) := Ok (a : A) | Err (e : ekind).
Arguments Ok {A} a.
Arguments Err {A} e.

Definition bind {A B} (r : res A) (f : A -> res B) : res B :=
  match r with Ok a => f a | Err e => Err e end.

Lemma bind_assoc {A B C} (r : res A) (f : A -> res B) (g : B -> res C) :
  bind (bind r f) g = bind r (fun a => bind (f a) g).
Proof. destruct r; reflexivity. Qed.

Notation "'do' x <- r ; k" := (bind r (fun x => k)) (at level 200, x pattern, r at level 100, k at level 200).

Lemma bind_ok {A B} (r : res A) (k : A -> res B) b : (do a <- r; k a) = Ok b -> exists a, r = Ok a /\ k a = Ok b.
Proof. destruct r as [a|e]; [intros H; exists a; split; [reflexivity|exact H]|discriminate]. Qed.

Fixpoint sum_nat (l : list nat) : nat := match l with [] => 0 | x :: r => x + sum_nat r end.

Lemma sum_nat_app a b : sum_nat (a ++ b) = sum_nat a + sum_nat b.
Proof. exact (list_sum_app a b). Qed.
