(* Facts about lists that the standard library of Coq 8.16 does not have.  Every file of the development loads this one, so it
   requires nothing beyond List, Bool and PeanoNat (in particular not Lia: loading it costs every file as much as loading all
   the rest). *)
From Coq Require Import List Bool PeanoNat.
Import ListNotations.

(* The models compare lists with their own copies of this fixpoint (Prelude.text_eqb, TokenRel.texts_eqb, Discovery.parts_eqb,
   Config.path_eqb), each convertible with an instance of it: `exact (list_eqb_eq eqb eqb_eq a b)` proves their specs.  The same
   holds for the duplicate-key tests Config.nodupb and Record.nodupb and list_nodupb. *)
Section Eqb.
  Context {A : Type} (eqb : A -> A -> bool) (eqb_eq : forall x y, eqb x y = true <-> x = y).

  Fixpoint list_eqb (a b : list A) : bool :=
    match a, b with
    | [], [] => true
    | x :: a', y :: b' => eqb x y && list_eqb a' b'
    | _, _ => false
    end.

  Lemma list_eqb_eq a b : list_eqb a b = true <-> a = b.
  Proof.
    revert b; induction a as [|x a IH]; intros [|y b]; cbn [list_eqb]; split; intros H; try reflexivity; try discriminate.
    - apply andb_true_iff in H as [H1 H2]. apply eqb_eq in H1. apply IH in H2. congruence.
    - inversion H; subst. apply andb_true_iff; split; [apply eqb_eq; reflexivity | apply IH; reflexivity].
  Qed.

  Lemma existsb_eqb_In x l : existsb (eqb x) l = true <-> In x l.
  Proof.
    rewrite existsb_exists. split.
    - intros [y [Hy E]]. apply eqb_eq in E. subst y. exact Hy.
    - intros H. exists x. split; [exact H|apply eqb_eq; reflexivity].
  Qed.

  Fixpoint list_nodupb (l : list A) : bool :=
    match l with
    | [] => true
    | x :: r => negb (existsb (eqb x) r) && list_nodupb r
    end.

  Lemma list_nodupb_NoDup l : list_nodupb l = true <-> NoDup l.
  Proof.
    induction l as [|x l IH]; cbn [list_nodupb]; [split; [constructor|reflexivity]|].
    rewrite andb_true_iff, negb_true_iff, <- not_true_iff_false, existsb_eqb_In, IH. symmetry. apply NoDup_cons_iff.
  Qed.
End Eqb.

Lemma existsb_ext_in {A} (f g : A -> bool) l : (forall x, In x l -> f x = g x) -> existsb f l = existsb g l.
Proof. intros H. induction l as [|x r IH]; cbn [existsb]; [reflexivity|]. rewrite (H x), IH; auto with datatypes. Qed.

Lemma forallb_ext_in {A} (f g : A -> bool) l : (forall x, In x l -> f x = g x) -> forallb f l = forallb g l.
Proof. intros H. induction l as [|x r IH]; cbn [forallb]; [reflexivity|]. rewrite (H x), IH; auto with datatypes. Qed.

Lemma existsb_false {A} (p : A -> bool) l : existsb p l = false <-> forall x, In x l -> p x = false.
Proof.
  rewrite <- not_true_iff_false, existsb_exists. split.
  - intros H x Hx. apply not_true_iff_false. intros E. apply H. exists x. split; assumption.
  - intros H [x [Hx E]]. rewrite (H x Hx) in E. discriminate.
Qed.

Lemma existsb_impl {A} (p q : A -> bool) l :
  (forall x, p x = true -> q x = true) -> existsb p l = true -> existsb q l = true.
Proof. intros H E. apply existsb_exists in E as [x [Hx E]]. apply existsb_exists. exists x. auto. Qed.

Lemma existsb_or {A} (p q : A -> bool) l : existsb (fun x => p x || q x) l = existsb p l || existsb q l.
Proof.
  induction l as [|x l IH]; cbn [existsb]; [reflexivity|]. rewrite IH.
  destruct (p x), (q x), (existsb p l); reflexivity.
Qed.

Lemma existsb_and_const {A} (c : bool) (p : A -> bool) l : existsb (fun x => c && p x) l = c && existsb p l.
Proof. destruct c; [reflexivity|]. induction l; [reflexivity|assumption]. Qed.

Lemma existsb_map {A B} (f : B -> bool) (g : A -> B) l : existsb f (map g l) = existsb (fun x => f (g x)) l.
Proof. induction l as [|x l IH]; [reflexivity|]. cbn [map existsb]. rewrite IH. reflexivity. Qed.

Lemma existsb_filter {A} (p f : A -> bool) l : existsb f (filter p l) = existsb (fun x => p x && f x) l.
Proof.
  induction l as [|x l IH]; cbn [filter existsb]; [reflexivity|].
  destruct (p x); cbn [existsb andb]; rewrite IH; reflexivity.
Qed.

Lemma filter_filter {A} (f g : A -> bool) l : filter f (filter g l) = filter (fun x => g x && f x) l.
Proof.
  induction l as [|x l IH]; cbn [filter]; [reflexivity|].
  destruct (g x); cbn [filter andb]; [destruct (f x); rewrite IH; reflexivity|exact IH].
Qed.

Lemma filter_all_true {A} (f : A -> bool) l : Forall (fun x => f x = true) l -> filter f l = l.
Proof. induction 1 as [|x l Hx _ IH]; cbn [filter]; [reflexivity|]. rewrite Hx, IH. reflexivity. Qed.

Lemma filter_all_false {A} (f : A -> bool) l : Forall (fun x => f x = false) l -> filter f l = [].
Proof. induction 1 as [|x l Hx _ IH]; cbn [filter]; [reflexivity|]. rewrite Hx. exact IH. Qed.

Lemma filter_nil_neg {A} (f : A -> bool) l : filter f l = [] -> filter (fun v => negb (f v)) l = l.
Proof.
  induction l as [|x l IH]; cbn [filter]; [reflexivity|].
  destruct (f x); [discriminate|]. intros H. cbn [negb]. rewrite IH by exact H. reflexivity.
Qed.

Lemma filter_map_swap {A B} (p : B -> bool) (f : A -> B) l : filter p (map f l) = map f (filter (fun x => p (f x)) l).
Proof. induction l as [|x l IH]; cbn [map filter]; [reflexivity|]. destruct (p (f x)); cbn [map]; rewrite IH; reflexivity. Qed.

Lemma map_eq_Forall2 {A B} (f : A -> B) (R : A -> A -> Prop) :
  (forall a b, f b = f a -> R a b) -> forall l l', map f l' = map f l -> Forall2 R l l'.
Proof. intros H. induction l as [|a l IH]; intros [|b l'] E; try discriminate E; constructor; inversion E; auto. Qed.

Lemma flat_map_ext_in {A B} (f g : A -> list B) l : (forall x, In x l -> f x = g x) -> flat_map f l = flat_map g l.
Proof. intros H. induction l as [|x r IH]; cbn [flat_map]; [reflexivity|]. rewrite (H x), IH; auto with datatypes. Qed.

Lemma flat_map_nil_in {A B} (f : A -> list B) l : (forall x, In x l -> f x = []) -> flat_map f l = [].
Proof.
  intros H. rewrite flat_map_concat_map. apply concat_nil_Forall, Forall_forall.
  intros y Hy. apply in_map_iff in Hy as [x [<- Hx]]. apply H, Hx.
Qed.

Lemma flat_map_flat_map {A B C} (f : A -> list B) (g : B -> list C) l :
  flat_map g (flat_map f l) = flat_map (fun x => flat_map g (f x)) l.
Proof. induction l as [|x l IH]; cbn [flat_map]; [reflexivity|rewrite flat_map_app, IH; reflexivity]. Qed.

Lemma flat_map_concat {A B} (f : A -> list B) l : flat_map f (concat l) = flat_map (flat_map f) l.
Proof. induction l as [|x l IH]; cbn [flat_map concat]; [reflexivity|rewrite flat_map_app, IH; reflexivity]. Qed.

Lemma flat_map_map {A B C} (f : A -> B) (g : B -> list C) l : flat_map g (map f l) = flat_map (fun x => g (f x)) l.
Proof. rewrite !flat_map_concat_map, map_map. reflexivity. Qed.

Lemma flat_map_single {A B} (f : A -> B) l : flat_map (fun x => [f x]) l = map f l.
Proof. reflexivity. Qed.

Lemma map_flat_map {A B C} (f : B -> C) (g : A -> list B) l : map f (flat_map g l) = flat_map (fun x => map f (g x)) l.
Proof. rewrite !flat_map_concat_map, concat_map, map_map. reflexivity. Qed.

Lemma filter_flat_map {A B} (p : B -> bool) (g : A -> list B) l :
  filter p (flat_map g l) = flat_map (fun x => filter p (g x)) l.
Proof. rewrite !flat_map_concat_map, <- concat_filter_map, map_map. reflexivity. Qed.

Lemma flat_map_filter {A B} (p : A -> bool) (f : A -> list B) l :
  flat_map f (filter p l) = flat_map (fun x => if p x then f x else []) l.
Proof. induction l as [|x l IH]; cbn [filter flat_map]; [reflexivity|]. destruct (p x); cbn [flat_map app]; rewrite IH; reflexivity. Qed.

Lemma fold_left_ind {A B} (P : A -> Prop) (f : A -> B -> A) l : forall a,
  P a -> (forall a x, In x l -> P a -> P (f a x)) -> P (fold_left f l a).
Proof.
  induction l as [|x l IH]; intros a Ha Hf; cbn [fold_left]; [exact Ha|].
  apply IH; [apply Hf; [left; reflexivity|exact Ha]|]. intros a' y Hy. apply Hf. right. exact Hy.
Qed.

Lemma skipn_add {A} (l : list A) a b : skipn a (skipn b l) = skipn (b + a) l.
Proof. revert l. induction b as [|b IH]; intros l; cbn [skipn Nat.add]; [reflexivity|]. destruct l; [destruct a; reflexivity|apply IH]. Qed.

Lemma firstn_length_app {A} (l r : list A) : firstn (length l) (l ++ r) = l.
Proof. rewrite firstn_app, Nat.sub_diag, firstn_all. apply app_nil_r. Qed.

Lemma skipn_length_app {A} (l r : list A) : skipn (length l) (l ++ r) = r.
Proof. rewrite skipn_app, skipn_all, Nat.sub_diag. reflexivity. Qed.

(* The models write Python's s[a:b] as firstn (b - a) (skipn a s), under several names (Patch.substr, Placeholder.pslice). *)
Lemma slice_nil {A} (s : list A) a b : b <= a -> firstn (b - a) (skipn a s) = [].
Proof. intros H. apply Nat.sub_0_le in H. rewrite H. reflexivity. Qed.

Lemma skipn_slice {A} (s : list A) a b : a <= b -> skipn a s = firstn (b - a) (skipn a s) ++ skipn b s.
Proof.
  intros H. rewrite <- (firstn_skipn (b - a) (skipn a s)) at 1. rewrite skipn_add, Nat.add_comm, Nat.sub_add by exact H.
  reflexivity.
Qed.

Lemma slice_split {A} (s : list A) a b c : a <= b -> b <= c ->
  firstn (c - a) (skipn a s) = firstn (b - a) (skipn a s) ++ firstn (c - b) (skipn b s).
Proof.
  (* cut the left-hand side at b - a *)
  intros H1 H2. rewrite <- (firstn_skipn (b - a) (firstn (c - a) (skipn a s))).
  rewrite firstn_firstn, Nat.min_l by (apply Nat.sub_le_mono_r; exact H2). f_equal.
  rewrite skipn_firstn_comm, skipn_add, Nat.add_comm, Nat.sub_add by exact H1. f_equal.
  rewrite <- Nat.sub_add_distr, Nat.add_comm, Nat.sub_add by exact H1. reflexivity.
Qed.

Lemma slice_to_end {A} (s : list A) a : firstn (length s - a) (skipn a s) = skipn a s.
Proof. apply firstn_all2. rewrite skipn_length. apply Nat.le_refl. Qed.

Lemma slice_length {A} (s : list A) a b : b <= length s -> length (firstn (b - a) (skipn a s)) = b - a.
Proof. intros H. rewrite firstn_length, skipn_length. apply Nat.min_l, Nat.sub_le_mono_r, H. Qed.
