(* Decoder for the compact numeric encoding the translators use for large tables (Coq's list notation parses long literals in
   quadratic time; a string literal is read in linear time).  Format: decimal numbers separated by ',', lists separated by ';',
   entries separated by '|'.   "1;2,3|4;" = [[[1];[2;3]]; [[4];[]]] *)
From SF Require Import Base.Prelude.
From Coq Require Import String Ascii.

(* A literal of type `string` costs coqc some 13 000 words of allocation per character, most of it spent inside the notation on
   turning bytes into `ascii`s.  Read as bare bytes it costs 5 000, and `of_bytes` is left to the vm_compute that decodes the table. *)
Inductive bytes := Bytes (l : list Byte.byte).
Definition list_of_bytes (b : bytes) : list Byte.byte := let (l) := b in l.
Declare Scope bytes_scope.
Delimit Scope bytes_scope with bytes.
String Notation bytes Bytes list_of_bytes : bytes_scope.
Definition of_bytes (b : bytes) : string := string_of_list_byte (list_of_bytes b).

Definition digit_of (a : ascii) : option N :=
  let n := N_of_ascii a in if (48 <=? n)%N && (n <=? 57)%N then Some (n - 48)%N else None.

(* state: finished entries (reversed), finished lists of current entry (reversed), finished numbers of current list (reversed),
   current number if any *)
Fixpoint dec (s : string) (es : list (list (list N))) (ls : list (list N)) (ns : list N) (cur : option N)
  : list (list (list N)) :=
  let close_n := match cur with Some n => n :: ns | None => ns end in
  match s with
  | EmptyString => rev (rev (rev close_n :: ls) :: es)
  | String a r =>
      match digit_of a with
      | Some d => dec r es ls ns (Some (match cur with Some n => n * 10 + d | None => d end)%N)
      | None =>
          if Ascii.eqb a ","%char then dec r es ls close_n None
          else if Ascii.eqb a ";"%char then dec r es (rev close_n :: ls) [] None
          else (* '|' or anything else: entry separator *) dec r (rev (rev close_n :: ls) :: es) [] [] None
      end
  end.

Definition decode (s : string) : list (list (list N)) :=
  match s with EmptyString => [] | _ => dec s [] [] [] None end.

(* An entry of another shape than expected decodes to a default (as_graph: (0, []), as_pairs: ([], []), as_list: []) instead of
   failing; the generated shape_<d> theorems compare entry and edge counts with what the translator wrote. *)
Definition as_graph (l : list (list (list N))) : list (N * list N) :=
  map (fun e => match e with [k] :: succs :: _ => (k, succs) | [k] :: [] => (k, []) | _ => (0%N, []) end) l.

Definition as_pairs (l : list (list (list N))) : list (list N * list N) :=
  map (fun e => match e with a :: b :: _ => (a, b) | a :: [] => (a, []) | [] => ([], []) end) l.

Definition as_list (l : list (list (list N))) : list N :=
  match l with (ns :: _) :: _ => ns | _ => [] end.

Example decode_ex : decode "1;2,3|4;|10;7" = [[[1];[2;3]]; [[4];[]]; [[10];[7]]]%N.
Proof. reflexivity. Qed.
