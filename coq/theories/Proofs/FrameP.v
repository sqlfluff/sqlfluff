(* Frame theorems over the patch-application spec of Model/Patch.v (splice_from): text outside the applied patches is copied
   verbatim and in order.  Used by C10 (template code untouched) and C11 (untouched text preserved). *)
From SF Require Import Base.Prelude Model.Patch Proofs.PatchP.
From Coq Require Import Lia.

Section Frame.
  Variable src : text.

  (* a protected range [a,b) is not touched by a patch: the patch ends before it or starts after it *)
  Definition avoids (a b : nat) (p : patch) : Prop := p_stop p <= a \/ b <= p_start p.

  Lemma frame_step ap : forall idx a b,
    chain idx ap -> idx <= a -> a <= b -> Forall (avoids a b) ap ->
    exists pre ap', splice_from idx src ap = pre ++ substr src a b ++ splice_from b src ap'
                    /\ chain b ap' /\ incl ap' ap.
  Proof.
    induction ap as [|p r IH]; intros idx a b Hc Hia Hab Hav; cbn [splice_from].
    - exists (substr src idx a), []. cbn [splice_from chain]. split; [|split; [exact I|apply incl_refl]].
      rewrite (skipn_split src idx a Hia), (skipn_split src a b Hab). reflexivity.
    - cbn [chain] in Hc. destruct Hc as [H1 [H2 H3]]. inversion Hav as [|? ? Hp Hr].
      destruct Hp as [Hp|Hp].
      + destruct (IH (p_stop p) a b H3 Hp Hab Hr) as [pre [ap' [E [C I']]]].
        exists (substr src idx (p_start p) ++ p_text p ++ pre), ap'. split; [rewrite E, <- !app_assoc; reflexivity|].
        split; [exact C|apply incl_tl; exact I'].
      + exists (substr src idx a), (p :: r). cbn [splice_from chain]. split; [|split; [repeat split; assumption|apply incl_refl]].
        rewrite (substr_split src idx a (p_start p)) by lia. rewrite (substr_split src a b (p_start p)) by lia.
        rewrite <- !app_assoc. reflexivity.
  Qed.

  (* `pieces` occur in `out` in this order, separated by arbitrary text *)
  Inductive in_order : list text -> text -> Prop :=
  | io_nil out : in_order [] out
  | io_cons p ps pre rest : in_order ps rest -> in_order (p :: ps) (pre ++ p ++ rest).

  (* ascending, pairwise disjoint ranges starting at or after idx *)
  Fixpoint ranges_ok (idx : nat) (rs : list (nat * nat)) : Prop :=
    match rs with [] => True | (a, b) :: r => idx <= a /\ a <= b /\ ranges_ok b r end.

  Theorem protected_ranges_survive rs : forall idx ap,
    chain idx ap -> ranges_ok idx rs ->
    Forall (fun ab => Forall (avoids (fst ab) (snd ab)) ap) rs ->
    in_order (map (fun ab => substr src (fst ab) (snd ab)) rs) (splice_from idx src ap).
  Proof.
    induction rs as [|[a b] r IH]; intros idx ap Hc Hr Hav; cbn [map]; [constructor|].
    cbn [ranges_ok] in Hr. destruct Hr as [H1 [H2 H3]]. inversion Hav as [|? ? Hab Hrest]. cbn [fst snd] in *.
    destruct (frame_step ap idx a b Hc H1 H2 Hab) as [pre [ap' [E [C I']]]]. rewrite E. constructor.
    apply IH; [exact C|exact H3|].
    eapply Forall_impl; [|exact Hrest]. intros ab. apply incl_Forall. exact I'.
  Qed.
End Frame.

(* the fix of a file: ascending source ranges that no applied patch touches come out verbatim and in order *)
Theorem fix_source_frame (bufs : list (list patch)) (src : text) (rs : list (nat * nat)) :
  Forall (fun p => p_start p <= p_stop p /\ p_stop p <= length src) (concat bufs) ->
  ranges_ok 0 rs ->
  Forall (fun ab => Forall (avoids (fst ab) (snd ab)) (applied_from 0 (merge bufs))) rs ->
  in_order (map (fun ab => substr src (fst ab) (snd ab)) rs) (fix_source (merge bufs) [] src).
Proof.
  intros Hb Hr Hav. apply (Forall_impl (fun p => p_start p <= p_stop p) (fun p H => proj1 H)) in Hb.
  destruct (apply_exact_lemma bufs src Hb) as (E & C & _).
  rewrite E. apply protected_ranges_survive; assumption.
Qed.
