(* What the two passes of the noqa mask keep, as filters (nothing is claimed of the `used` list they also return): the single-line
   pass drops a violation exactly when some plain directive matches it (sl_pass_fst); the range pass drops it exactly when the last
   range directive covering it at or before its line, in the stably sorted list, is a disable (scan_spec, range_pass_fst).
   mask_with_fst puts the two together for any coverage predicate. *)
From SF Require Import Base.Prelude Base.Sort Model.NoQa.

Lemma sl_pass_fst : forall ds vs used,
  fst (sl_pass ds vs used) = filter (fun v => negb (existsb (fun d => sl_match d v) ds)) vs.
Proof.
  induction ds as [|d r IH]; intros vs used; cbn [sl_pass existsb].
  - cbn [fst negb]. symmetry. apply filter_all_true, Forall_forall. reflexivity.
  - assert (E : forall used', fst (sl_pass r (filter (fun v => negb (sl_match d v)) vs) used')
                = filter (fun v => negb (sl_match d v || existsb (fun d0 => sl_match d0 v) r)) vs).
    { intros used'. rewrite IH, filter_filter. apply filter_ext. intros v. rewrite negb_orb. reflexivity. }
    destruct (filter (sl_match d) vs) eqn:F.
    + rewrite <- (E used). rewrite (filter_nil_neg _ _ F). reflexivity.
    + apply E.
Qed.

Lemma last_opt_cons {A} (x : A) l : last_opt (x :: l) = match last_opt l with Some y => Some y | None => Some x end.
Proof.
  revert x. induction l as [|y l IH]; intros x; [reflexivity|].
  change (last_opt (x :: y :: l)) with (last_opt (y :: l)). rewrite (IH y). destruct (last_opt l); reflexivity.
Qed.

Lemma last_opt_none {A} (l : list A) : last_opt l = None -> l = [].
Proof. induction l as [|x l IH]; [reflexivity|]. rewrite last_opt_cons. destruct (last_opt l); discriminate. Qed.

Lemma scan_spec : forall rel line ig0 last0 used,
  StronglySorted (le line_leb) rel -> Forall (fun d => is_plain d = false) rel ->
  fst (fst (scan rel line ig0 last0 used)) =
  match last_opt (filter (fun d => d_line d <=? line) rel) with
  | Some d => is_disable d
  | None => ig0
  end.
Proof.
  induction rel as [|d r IH]; intros line ig0 last0 used Hs Hp; cbn [scan filter]; [reflexivity|].
  inversion Hs as [|? ? Hsr Hd]. inversion Hp as [|? ? Hpd Hpr].
  rewrite Nat.ltb_antisym. destruct (Nat.leb_spec (d_line d) line) as [Hle|Hlt]; cbn [negb].
  - (* Disable and Enable alike: the scan goes on with ignore = is_disable d *)
    rewrite last_opt_cons. unfold is_plain in Hpd.
    destruct (d_action d) eqn:A; [discriminate| |]; rewrite IH by assumption; (destruct (last_opt _); [reflexivity|]);
      unfold is_disable; rewrite A; reflexivity.
  - (* the scan stops here: rel is sorted, so every later directive is beyond the line as well *)
    rewrite filter_all_false; [reflexivity|]. eapply Forall_impl; [|exact Hd].
    intros e He. apply Nat.leb_gt. eapply Nat.lt_le_trans; [exact Hlt|]. apply Nat.leb_le. exact He.
Qed.

(* ds: the range directives.  The right-hand side is hidden_range without its filter on is_plain, which is void on ds. *)
Lemma range_pass_fst cov ds : Forall (fun d => is_plain d = false) ds -> forall vs used,
  fst (range_pass cov ds vs used)
  = filter (fun v => negb match last_opt (filter (fun d => d_line d <=? n_line v) (ssort line_leb (filter (fun d => cov d v) ds))) with
                          | Some d => is_disable d | None => false end) vs.
Proof.
  intros Hp. induction vs as [|v r IH]; intros used; cbn [range_pass filter]; [reflexivity|].
  set (rel := ssort line_leb (filter (fun d => cov d v) ds)).
  assert (Hpr : Forall (fun d => is_plain d = false) rel).
  { rewrite Forall_forall in *. intros d Hd. apply ssort_in, filter_In in Hd as [Hd _]. apply Hp; exact Hd. }
  rewrite <- (scan_spec rel (n_line v) false None used (by_key_sorted d_line _) Hpr).
  destruct (scan rel (n_line v) false None used) as [[ig last] used1]. cbn [fst].
  destruct ig; cbn [negb]; [apply IH|].
  specialize (IH used1). destruct (range_pass cov ds r used1) as [out used2]. cbn [fst] in *. rewrite IH. reflexivity.
Qed.

Theorem mask_with_fst cov ds vs :
  fst (mask_with cov ds vs)
  = filter (fun v => negb (hidden_single ds v) && negb (hidden_range cov ds v)) vs.
Proof.
  unfold mask_with.
  pose proof (sl_pass_fst (filter is_plain ds) vs []) as H1.
  destruct (sl_pass (filter is_plain ds) vs []) as [vs1 u1]. cbn [fst] in H1.
  rewrite range_pass_fst.
  - rewrite H1, filter_filter. apply filter_ext. intros v.
    rewrite existsb_filter, filter_filter. reflexivity.
  - apply Forall_forall. intros d Hd. apply filter_In in Hd as [_ Hd]. apply negb_true_iff; exact Hd.
Qed.

Lemma hidden_range_ext ds v (c1 c2 : directive -> violn -> bool) :
  (forall d, In d ds -> c1 d v = c2 d v) -> hidden_range c1 ds v = hidden_range c2 ds v.
Proof.
  intros H. unfold hidden_range, most_recent.
  replace (filter (fun d => negb (is_plain d) && c1 d v) ds) with (filter (fun d => negb (is_plain d) && c2 d v) ds); [reflexivity|].
  apply filter_ext_in. intros d Hd. rewrite (H d Hd). reflexivity.
Qed.

(* The defect repaired by the fix commit (F1): if "covers" treats an empty rule tuple like "no rules given", a range
   directive naming only non-excepted rules hides every rule. Kept as a regression witness about that alternative. *)
Definition covers_falsy (d : directive) (v : violn) : bool :=
  match d_rules d with None => true | Some [] => true | Some rs => mem (n_code v) rs end.

Example mask_example :
  let ds := [mkDir 0 1 (Some [0]) Disable; mkDir 1 2 None Plain; mkDir 2 3 (Some [0]) Enable] in
  mask ds [mkV 0 1; mkV 1 1; mkV 1 2; mkV 0 2; mkV 0 3; mkV 0 4] = ([mkV 1 1; mkV 0 3; mkV 0 4], [2; 2; 0; 2; 1]).
Proof.
  vm_compute; reflexivity.
Qed.
