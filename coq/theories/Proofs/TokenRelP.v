From SF Require Import Base.Prelude Model.TokenRel.

Lemma texts_eqb_eq a b : texts_eqb a b = true <-> a = b.
Proof. exact (list_eqb_eq text_eqb text_eqb_eq a b). Qed.

Lemma ws_only_refl a : ws_only a a.
Proof. split; [reflexivity|intros c; reflexivity]. Qed.
Lemma ws_only_sym a b : ws_only a b -> ws_only b a.
Proof. intros [H1 H2]. split; [symmetry; exact H1|intros c; symmetry; apply H2]. Qed.
Lemma ws_only_trans a b c : ws_only a b -> ws_only b c -> ws_only a c.
Proof. intros [H1 H2] [H3 H4]. split; [congruence|intros x; rewrite H2; apply H4]. Qed.

Theorem ws_only_b_sound a b : ws_only_b a b = true <-> ws_only a b.
Proof.
  unfold ws_only_b, ws_only. rewrite andb_true_iff, texts_eqb_eq, forallb_forall. split; intros [H1 H2]; (split; [exact H1|]).
  - intros c. destruct (in_dec text_dec c (comments a ++ comments b)) as [Hin|Hn].
    + apply Nat.eqb_eq. apply H2. exact Hin.
    + assert (~ In c (comments a) /\ ~ In c (comments b)) as [Ha Hb] by (split; intros X; apply Hn; apply in_or_app; auto).
      rewrite (proj1 (count_occ_not_In text_dec _ _) Ha), (proj1 (count_occ_not_In text_dec _ _) Hb). reflexivity.
  - intros c _. apply Nat.eqb_eq. apply H2.
Qed.

Theorem toks_eqb_eq a b : toks_eqb a b = true <-> a = b.
Proof.
  revert b. induction a as [|[x k] a IH]; intros [|[y j] b]; cbn [toks_eqb]; split; intros H; try reflexivity; try discriminate.
  - apply andb_true_iff in H as [H H3]. apply andb_true_iff in H as [H1 H2]. apply text_eqb_eq in H1. apply Nat.eqb_eq in H2.
    apply IH in H3. congruence.
  - inversion H; subst. rewrite !andb_true_iff. repeat split; [apply text_eqb_refl|apply Nat.eqb_refl|apply IH; reflexivity].
Qed.
