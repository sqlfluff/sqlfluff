(* Lemmas about Model/Patch.v: what merge_source_patches keeps (merge_ok) and what the slicer and builder compute from the merged
   patches (apply_exact_lemma). *)
From SF Require Import Base.Prelude Base.Sort Model.Patch.
From Coq Require Import Lia.

(* the slice facts of Base/Lists.v on the folded form, so that rewriting finds `substr` *)
Lemma substr_empty src a b : b <= a -> substr src a b = [].
Proof. apply slice_nil. Qed.

Lemma substr_to_end src a : substr src a (length src) = skipn a src.
Proof. apply slice_to_end. Qed.

Lemma substr_split src x y z : x <= y -> y <= z -> substr src x z = substr src x y ++ substr src y z.
Proof. apply slice_split. Qed.

Lemma skipn_split src x y : x <= y -> skipn x src = substr src x y ++ skipn y src.
Proof. apply skipn_slice. Qed.

Lemma StronglySorted_FOP {A} (R : A -> A -> Prop) l : StronglySorted R l <-> ForallOrdPairs R l.
Proof. split; induction 1; constructor; assumption. Qed.

Lemma FOP_snoc {A} (R : A -> A -> Prop) l p :
  ForallOrdPairs R l -> (forall m, In m l -> R m p) -> ForallOrdPairs R (l ++ [p]).
Proof.
  induction 1 as [|x l Hx _ IH]; intros Hall; cbn [app]; [repeat constructor|]. constructor.
  - apply Forall_app. split; [exact Hx|]. constructor; [apply Hall; left; reflexivity|constructor].
  - apply IH. intros m Hm. apply Hall. right. exact Hm.
Qed.

Lemma key_leb_spec a b :
  key_leb a b = true <-> p_start a < p_start b \/ (p_start a = p_start b /\ p_stop a <= p_stop b).
Proof. exact (by_keys_spec p_start p_stop a b). Qed.

Lemma same_slice_spec a b : same_slice a b = true <-> p_start a = p_start b /\ p_stop a = p_stop b.
Proof. unfold same_slice. rewrite andb_true_iff, !Nat.eqb_eq. reflexivity. Qed.

Definition kle := le key_leb.
Definition noconf (a b : patch) : Prop := conflict a b = false.

Lemma merge_step_cases merged p :
  merge_step merged p = merged \/ (merge_step merged p = merged ++ [p] /\ forall m, In m merged -> noconf m p).
Proof.
  unfold merge_step. destruct (existsb (same_dedupe p) merged); [left; reflexivity|].
  destruct (existsb (fun e => conflict e p) merged) eqn:E; [left; reflexivity|right].
  split; [reflexivity|apply existsb_false; exact E].
Qed.

Lemma merge_step_in merged p m : In m (merge_step merged p) -> In m merged \/ m = p.
Proof.
  destruct (merge_step_cases merged p) as [-> |[-> _]]; [tauto|].
  intros H. apply in_app_or in H as [H|[H|[]]]; [left; exact H|right; symmetry; exact H].
Qed.

(* invariant of the merge loop; sortedness is written with ForallOrdPairs so that FOP_snoc serves both halves *)
Definition MInv (merged : list patch) : Prop := ForallOrdPairs kle merged /\ ForallOrdPairs noconf merged.

Lemma merge_step_inv merged p : MInv merged -> (forall m, In m merged -> kle m p) -> MInv (merge_step merged p).
Proof.
  intros [Hs Hf] Hall. destruct (merge_step_cases merged p) as [-> |[-> Hp]]; [split; assumption|].
  split; apply FOP_snoc; assumption.
Qed.

Lemma fold_merge_in xs merged m : In m (fold_left merge_step xs merged) -> In m merged \/ In m xs.
Proof.
  apply (fold_left_ind (fun l => In m l -> In m merged \/ In m xs)); [tauto|].
  intros l x Hx IH Hm. apply merge_step_in in Hm as [Hm| ->]; [exact (IH Hm)|right; exact Hx].
Qed.

(* the input is sorted, so each patch comes after everything merged so far *)
Lemma fold_merge_inv : forall xs merged,
  ForallOrdPairs kle xs -> (forall m x, In m merged -> In x xs -> kle m x) -> MInv merged ->
  MInv (fold_left merge_step xs merged).
Proof.
  induction xs as [|x xs IH]; intros merged Hs Hle Hinv; cbn [fold_left]; [exact Hinv|].
  inversion Hs as [|? ? Hx Hxs]. rewrite Forall_forall in Hx. apply IH.
  - exact Hxs.
  - intros m y Hm Hy. apply merge_step_in in Hm as [Hm| ->]; [apply Hle; [exact Hm|right; exact Hy]|apply Hx; exact Hy].
  - apply merge_step_inv; [exact Hinv|]. intros m Hm. apply Hle; [exact Hm|left; reflexivity].
Qed.

Theorem merge_ok bufs :
  StronglySorted kle (merge bufs) /\ ForallOrdPairs noconf (merge bufs) /\
  (forall m, In m (merge bufs) -> In m (concat bufs)).
Proof.
  destruct (fold_merge_inv (ssort key_leb (concat bufs)) []) as [H1 H2].
  - apply StronglySorted_FOP, (by_keys_sorted p_start p_stop).
  - intros m x [].
  - split; constructor.
  - split; [apply StronglySorted_FOP; exact H1|]. split; [exact H2|]. intros m Hm. apply fold_merge_in in Hm as [[]|Hm].
    apply (ssort_in key_leb). exact Hm.
Qed.

Lemma noconf_same_slice_text a b : noconf a b -> p_start a = p_start b -> p_stop a = p_stop b -> p_text a = p_text b.
Proof.
  unfold noconf, conflict. intros H E1 E2. rewrite (proj2 (same_slice_spec a b) (conj E1 E2)) in H.
  apply negb_false_iff in H. apply text_eqb_eq; exact H.
Qed.

Lemma noconf_meaning a b : noconf a b ->
  (p_start a = p_start b /\ p_stop a = p_stop b /\ p_text a = p_text b)
  \/ Nat.min (p_stop a) (p_stop b) <= Nat.max (p_start a) (p_start b).
Proof.
  intros H. destruct (same_slice a b) eqn:S.
  - left. apply same_slice_spec in S as [E1 E2]. split; [exact E1|]. split; [exact E2|apply noconf_same_slice_text; assumption].
  - right. unfold noconf, conflict in H. rewrite S in H.
    destruct ((p_start a =? p_stop a) && (p_stop a =? p_start b) && (p_start b =? p_stop b)) eqn:Z; [|apply Nat.ltb_ge; exact H].
    apply andb_true_iff in Z as [_ Z]. apply Nat.eqb_eq in Z. lia.
Qed.

Lemma piece_patch ps src p :
  ForallOrdPairs noconf ps -> In p ps -> piece ps src (p_start p, p_stop p) = p_text p.
Proof.
  intros Hf Hin. unfold piece.
  destruct (find (fun q => sl_eqb (p_start q, p_stop q) (p_start p, p_stop p)) ps) as [q|] eqn:F.
  - apply find_some in F as [Hq Heq]. apply (same_slice_spec q p) in Heq as [E1 E2].
    destruct (ForallOrdPairs_In Hf q p Hq Hin) as [-> |[H|H]]; [reflexivity| |].
    + apply noconf_same_slice_text; assumption.
    + symmetry. apply noconf_same_slice_text; [exact H|symmetry; exact E1|symmetry; exact E2].
  - apply (find_none _ _ F p) in Hin. unfold sl_eqb in Hin. cbn [fst snd] in Hin.
    rewrite !Nat.eqb_refl in Hin. discriminate.
Qed.

Lemma piece_raw ps src a b :
  (forall q, In q ps -> ~ (p_start q = a /\ p_stop q = b)) -> piece ps src (a, b) = substr src a b.
Proof.
  intros H. unfold piece.
  destruct (find (fun p => sl_eqb (p_start p, p_stop p) (a, b)) ps) as [q|] eqn:F; [|reflexivity].
  apply find_some in F as [Hq Heq]. apply andb_true_iff in Heq as [E1 E2]. apply Nat.eqb_eq in E1, E2.
  destruct (H q Hq). split; assumption.
Qed.

(* When the loop stands at idx with r still to come, every patch of ps is in r, or was skipped (it starts before idx), or was
   applied (it ends at or before idx): so none of them has the range of a gap that the loop emits from idx on, and `piece`, which
   looks every range up in all of ps, copies the gap from the source. *)
Lemma build_loop_spec src ps :
  ForallOrdPairs noconf ps ->
  forall r idx,
    StronglySorted kle r -> Forall (fun p => p_start p <= p_stop p) r -> incl r ps ->
    (forall q, In q ps -> In q r \/ p_start q < idx \/ p_stop q <= idx) ->
    concat (map (piece ps src) (slice_loop r [] idx (length src)))
    = splice_from idx src (applied_from idx r).
Proof.
  intros Hf. induction r as [|p r IH]; intros idx Hs Hwf Hi Hpast.
  - cbn [slice_loop applied_from splice_from].
    destruct (Nat.ltb_spec idx (length src)) as [Hlt|Hge]; cbn [map concat]; [|symmetry; apply skipn_all2; exact Hge].
    rewrite app_nil_r, piece_raw; [apply substr_to_end|].
    intros q Hq [E1 E2]. destruct (Hpast q Hq) as [[]|H]; lia.
  - inversion Hs as [|? ? Hsr Hp]. inversion Hwf as [|? ? Hp1 Hwfr]; subst.
    assert (Hnext : forall idx', idx <= idx' -> p_start p < idx' \/ p_stop p <= idx' ->
              concat (map (piece ps src) (slice_loop r [] idx' (length src))) = splice_from idx' src (applied_from idx' r)).
    { intros idx' H1 H2. apply IH; [exact Hsr|exact Hwfr|intros q Hq; apply Hi; right; exact Hq|].
      intros q Hq. destruct (Hpast q Hq) as [[<- |Hr]|H]; [right; exact H2|left; exact Hr|right; lia]. }
    cbn [slice_loop pop_so applied_from].
    destruct (Nat.ltb_spec (p_start p) idx) as [Hskip|Hnoskip].
    + destruct (Nat.ltb_spec idx (p_start p)); [lia|]. apply Hnext; [lia|left; exact Hskip].
    + cbn [splice_from]. rewrite <- (Hnext (p_stop p)) by lia.
      pose proof (piece_patch ps src p Hf (Hi p (or_introl eq_refl))) as Hpp.
      destruct (Nat.ltb_spec idx (p_start p)) as [Hgap|Hnogap]; cbn [app map concat]; rewrite Hpp.
      * rewrite piece_raw; [reflexivity|].
        intros q Hq [E1 E2]. destruct (Hpast q Hq) as [[<- |Hr]|H]; [lia| |lia].
        rewrite Forall_forall in Hp. apply Hp, key_leb_spec in Hr. lia.
      * rewrite substr_empty by lia. reflexivity.
Qed.

Lemma applied_chain : forall ps idx, Forall (fun p => p_start p <= p_stop p) ps -> chain idx (applied_from idx ps).
Proof.
  induction ps as [|p r IH]; intros idx Hwf; cbn [applied_from]; [exact I|].
  inversion Hwf as [|? ? H1 Hr].
  destruct (Nat.ltb_spec (p_start p) idx); [apply IH; exact Hr|].
  cbn [chain]. repeat split; [assumption|assumption|apply IH; exact Hr].
Qed.

Lemma applied_sub : forall ps idx p, In p (applied_from idx ps) -> In p ps.
Proof.
  induction ps as [|q r IH]; intros idx p; cbn [applied_from]; [tauto|].
  destruct (p_start q <? idx); [intros H; right; eapply IH; exact H|].
  intros [-> |H]; [left; reflexivity|right; eapply IH; exact H].
Qed.

(* the patches need not end inside the source for this *)
Theorem apply_exact_lemma bufs src :
  Forall (fun p => p_start p <= p_stop p) (concat bufs) ->
  let ps := merge bufs in
  let applied := applied_from 0 ps in
  fix_source ps [] src = splice_from 0 src applied
  /\ chain 0 applied
  /\ (forall p, In p applied -> In p ps)
  /\ ForallOrdPairs noconf ps.
Proof.
  intros Hwf ps applied.
  destruct (merge_ok bufs) as [Hs [Hf Hin]].
  assert (Hwf' : Forall (fun p => p_start p <= p_stop p) ps) by exact (incl_Forall Hin Hwf).
  split; [|split; [|split]].
  - apply (build_loop_spec src ps Hf ps 0); [exact Hs|exact Hwf'|apply incl_refl|intros q Hq; left; exact Hq].
  - apply applied_chain; exact Hwf'.
  - apply applied_sub.
  - exact Hf.
Qed.

(* Without the merge step two zero-length patches at one point with different text make the first
   apply twice (the `source_patches is None` API path). *)
Example unmerged_double_apply :
  let a := mkPatch 1 1 [88]%N in let b := mkPatch 1 1 [89]%N in
  fix_source [a; b] [] [97; 98]%N = [97; 88; 88; 98]%N /\ fix_source (merge [[a; b]]) [] [97; 98]%N = [97; 88; 98]%N.
Proof. split; vm_compute; reflexivity. Qed.

(* non-vacuity: a concrete merged set with an applied and a dropped patch *)
Example apply_example :
  let bufs := [[mkPatch 1 3 [88]%N; mkPatch 4 4 [90]%N]; [mkPatch 2 5 [89]%N; mkPatch 1 3 [88]%N]] in
  merge bufs = [mkPatch 1 3 [88]%N; mkPatch 4 4 [90]%N]
  /\ fix_source (merge bufs) [] [97;98;99;100;101;102]%N = [97;88;100;90;101;102]%N.
Proof. split; vm_compute; reflexivity. Qed.
