From SF Require Import Base.Prelude Model.DialectGraph.

Lemma nmemN_In n l : nmemN n l = true <-> In n l.
Proof. exact (existsb_eqb_In N.eqb N.eqb_eq n l). Qed.

Theorem closed_check_sound g root visited dangling :
  closed_check g root visited dangling = true ->
  forall n, path g root n -> In n visited /\ (entry g n <> None \/ (In n dangling /\ entry g n = None)).
Proof.
  intros H.
  apply andb_true_iff in H as [H Hd]. apply andb_true_iff in H as [Hr Hv].
  rewrite forallb_forall in Hv, Hd.
  assert (Hin : forall n, path g root n -> In n visited).
  { intros n P. induction P as [|b c succs P IH E Hc].
    - apply nmemN_In; exact Hr.
    - specialize (Hv b IH). rewrite E in Hv. rewrite forallb_forall in Hv. apply nmemN_In. apply Hv; exact Hc. }
  intros n P. split; [apply Hin; exact P|].
  specialize (Hv n (Hin n P)). destruct (entry g n) as [s|] eqn:E.
  - left. discriminate.
  - right. split; [apply nmemN_In; exact Hv|reflexivity].
Qed.

Corollary closed_no_dangling g root visited :
  closed_check g root visited [] = true -> forall n, path g root n -> entry g n <> None.
Proof.
  intros H n P. destruct (closed_check_sound g root visited [] H n P) as [_ [E|[[] _]]]. exact E.
Qed.

From Coq Require Import FMapPositive MSetPositive.

Lemma key_inj a b : key a = key b -> a = b.
Proof. unfold key. intros H. rewrite <- (N.pos_pred_succ a), <- (N.pos_pred_succ b). rewrite H. reflexivity. Qed.

Lemma map_of_find g n : PositiveMap.find (key n) (map_of g) = entry g n.
Proof.
  unfold entry. induction g as [|[k v] r IH]; cbn [map_of find fst snd].
  - apply PositiveMap.gempty.
  - destruct (N.eqb_spec k n) as [->|Hne].
    + rewrite PositiveMap.gss. reflexivity.
    + rewrite PositiveMap.gso; [exact IH|]. intros E. apply key_inj in E. congruence.
Qed.

Lemma set_of_mem l n : PositiveSet.mem (key n) (set_of l) = nmemN n l.
Proof.
  unfold nmemN. induction l as [|x r IH]; cbn [set_of existsb].
  - reflexivity.
  - destruct (N.eqb_spec n x) as [->|Hne]; cbn [orb].
    + apply PositiveSet.add_spec. left. reflexivity.
    + rewrite <- IH. apply Bool.eq_true_iff_eq. rewrite !PositiveSet.mem_spec, PositiveSet.add_spec.
      split; [intros [E|H]; [apply key_inj in E; congruence|exact H] | intros H; right; exact H].
Qed.

Theorem closed_check_fast_eq g root visited dangling :
  closed_check_fast g root visited dangling = closed_check g root visited dangling.
Proof.
  unfold closed_check_fast, closed_check. rewrite set_of_mem. f_equal; [f_equal|].
  - apply forallb_ext_in. intros n _. rewrite map_of_find. destruct (entry g n) as [succs|].
    + apply forallb_ext_in. intros s _. apply set_of_mem.
    + apply set_of_mem.
  - apply forallb_ext_in. intros n _. rewrite map_of_find. reflexivity.
Qed.

Corollary closed_fast_no_dangling g root visited :
  closed_check_fast g root visited [] = true -> forall n, path g root n -> entry g n <> None.
Proof. rewrite closed_check_fast_eq. apply closed_no_dangling. Qed.

Corollary closed_fast_up_to_listed g root visited dangling :
  closed_check_fast g root visited dangling = true ->
  forall n, path g root n -> entry g n <> None \/ In n dangling.
Proof.
  rewrite closed_check_fast_eq. intros H n P.
  destruct (closed_check_sound g root visited dangling H n P) as [_ [E|[D _]]]; [left; exact E|right; exact D].
Qed.
