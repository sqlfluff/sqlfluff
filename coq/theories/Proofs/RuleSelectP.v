From SF Require Import Base.Prelude Model.Glob Model.RuleSelect Proofs.GlobP.

Lemma tmem_In x l : tmem x l = true <-> In x l.
Proof. exact (existsb_eqb_In text_eqb text_eqb_eq x l). Qed.

Definition matches (reg : register) (sel : list text) (c : text) : Prop :=
  exists r, In r sel /\
    ((exists cs, lookup reg r = Some cs /\ In c cs)
     \/ (lookup reg r = None /\ exists k cs, In k (keys reg) /\ gsem (parse_pat r) k /\ lookup reg k = Some cs /\ In c cs)).

Lemma expand_matches reg sel c : In c (expand reg sel) <-> matches reg sel c.
Proof.
  unfold expand, matches. rewrite <- flat_map_concat_map, in_flat_map. split.
  - intros [r [Hr Hc]]. exists r. split; [exact Hr|].
    unfold expand1 in Hc. destruct (lookup reg r) as [cs|] eqn:L.
    + left. exists cs. split; [reflexivity|exact Hc].
    + right. split; [reflexivity|]. rewrite <- flat_map_concat_map in Hc. apply in_flat_map in Hc as [k [Hk Hc]].
      destruct (fnmatch k r) eqn:F; [|destruct Hc].
      destruct (lookup reg k) as [cs|] eqn:Lk; [|destruct Hc].
      exists k, cs. repeat split; try assumption. apply gmatch_correct. exact F.
  - intros [r [Hr H]]. exists r. split; [exact Hr|].
    unfold expand1. destruct H as [[cs [L Hc]]|[L [k [cs [Hk [G [Lk Hc]]]]]]]; rewrite L; [exact Hc|].
    rewrite <- flat_map_concat_map. apply in_flat_map. exists k. split; [exact Hk|].
    unfold fnmatch. apply gmatch_correct in G. rewrite G, Lk. exact Hc.
Qed.

Theorem select_spec_lemma reg allow deny c :
  In c (select reg allow deny) <->
  In c (codes reg) /\ matches reg (match allow with [] => codes reg | _ => allow end) c /\ ~ matches reg deny c.
Proof.
  unfold select. rewrite filter_In, andb_true_iff, negb_true_iff, <- not_true_iff_false, !tmem_In, !expand_matches. reflexivity.
Qed.

Lemma lookup_code reg c : In c (codes reg) -> lookup reg c = Some [c].
Proof. intros H. unfold lookup, is_code. apply tmem_In in H. rewrite H. reflexivity. Qed.

Theorem empty_selection_is_all reg c : In c (codes reg) -> In c (select reg [] []).
Proof.
  intros H. apply select_spec_lemma. split; [exact H|]. split.
  - exists c. split; [exact H|]. left. exists [c]. split; [apply lookup_code; exact H|left; reflexivity].
  - intros [r [[] _]].
Qed.

Lemma split_commas_nonempty s : forall x, In x (split_commas s) -> x <> [].
Proof. intros x H. apply filter_In in H as [_ H]. destruct x; discriminate. Qed.
