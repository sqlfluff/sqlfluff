From SF Require Import Base.Prelude Model.LexTable.

(* The last-resort matcher refuses only tab, newline and space: tab and space are whitespace, newline is the newline matcher's. *)
Lemma first_char_covered c s : 0 < ws_len (c :: s) \/ 0 < nl_len (c :: s) \/ 0 < last_len (c :: s).
Proof.
  unfold ws_len, last_len. cbn [prefix_len].
  destruct (last_char c) eqn:L; [right; right; apply Nat.lt_0_succ|].
  unfold last_char in L.
  destruct (N.eqb_spec c 9) as [->|_]; [left; apply Nat.lt_0_succ|].
  destruct (N.eqb_spec c 10) as [->|_]; [right; left; apply Nat.lt_0_succ|].
  destruct (N.eqb_spec c 32) as [->|_]; [left; apply Nat.lt_0_succ|].
  discriminate L.
Qed.

(* what ws_len and last_len count is a prefix of the text: the matchers always stop *)
Lemma prefix_len_le p s : prefix_len p s <= length s.
Proof. induction s as [|c s IH]; cbn [prefix_len length]; [apply Nat.le_refl|]. destruct (p c); [apply le_n_S, IH|apply Nat.le_0_l]. Qed.
