From SF Require Import Base.Prelude Model.Funnel.

Lemma crawl_total rule evals acc : rule_evals_ok evals = true -> exists vs, crawl rule evals acc = Val vs.
Proof.
  revert acc. induction evals as [|o r IH]; intros acc H; cbn [crawl].
  - eauto.
  - cbn [rule_evals_ok forallb] in H. apply andb_true_iff in H as [Ho Hr].
    destruct o as [n|x]; [apply IH; exact Hr|]. destruct x; try discriminate; eauto.
Qed.

Lemma run_rules_total rs acc :
  forallb (fun re => rule_evals_ok (snd re)) rs = true -> exists vs, run_rules rs acc = Val vs.
Proof.
  revert acc. induction rs as [|[r evals] rest IH]; intros acc H; cbn [run_rules].
  - eauto.
  - cbn [forallb snd] in H. apply andb_true_iff in H as [H1 H2].
    destruct (crawl_total r evals [] H1) as [vs ->]. apply IH; exact H2.
Qed.

Lemma lint_variant_total mx v : variant_ok v = true -> exists vs, lint_variant mx v = Val vs.
Proof.
  unfold variant_ok, lint_variant. intros H. apply andb_true_iff in H as [H Hr].
  destruct (v_lex v) as [lv|x]; [|destruct x; try discriminate; eauto].
  destruct ((0 <? mx) && (mx <? v_tokens v)); [eauto|].
  destruct (v_parse v) as [u|x]; [|destruct x; try discriminate; eauto].
  destruct (run_rules_total (v_rules v) [] Hr) as [vs ->]. eauto.
Qed.

(* the variants that raise only their documented exceptions are linted, one after the other *)
Lemma lint_variants_app mx vs1 vs2 acc :
  forallb variant_ok vs1 = true -> exists acc', lint_variants mx (vs1 ++ vs2) acc = lint_variants mx vs2 acc'.
Proof.
  revert acc. induction vs1 as [|v r IH]; intros acc H; cbn [app lint_variants]; [eauto|].
  cbn [forallb] in H. apply andb_true_iff in H as [H1 H2]. destruct (lint_variant_total mx v H1) as [l ->]. apply IH, H2.
Qed.

Lemma lint_variants_total mx vs acc : forallb variant_ok vs = true -> exists r, lint_variants mx vs acc = Val r.
Proof. intros H. destruct (lint_variants_app mx vs [] acc H) as [acc' E]. rewrite app_nil_r in E. rewrite E. cbn [lint_variants]. eauto. Qed.

(* The funnel hides nothing else: an exception of another class in the lexing or parsing stage of any variant comes out of
   lint_string, once the variants before it have been linted. *)
Theorem variant_exception_propagates mx k vs1 v r n :
  forallb variant_ok vs1 = true ->
  (v_lex v = Raise (XOther k) \/ (exists lv, v_lex v = Val lv /\ ((0 <? mx) && (mx <? v_tokens v)) = false /\ v_parse v = Raise (XOther k)))
  -> lint_string mx (Val (vs1 ++ v :: r, n)) = Raise (XOther k).
Proof.
  intros Hok H. cbn [lint_string]. destruct (lint_variants_app mx vs1 (v :: r) (repeat TMP n) Hok) as [acc ->].
  cbn [lint_variants]. unfold lint_variant. destruct H as [H|[lv [H1 [H2 H3]]]].
  - rewrite H. reflexivity.
  - rewrite H1, H2, H3. reflexivity.
Qed.

Theorem other_exception_propagates mx k v r n :
  (v_lex v = Raise (XOther k) \/ (exists lv, v_lex v = Val lv /\ ((0 <? mx) && (mx <? v_tokens v)) = false /\ v_parse v = Raise (XOther k)))
  -> lint_string mx (Val (v :: r, n)) = Raise (XOther k).
Proof. exact (variant_exception_propagates mx k [] v r n eq_refl). Qed.

(* what a rule run that returns has collected: its lint results, then one "Unexpected exception" iff an _eval raised *)
Lemma crawl_shape rule evals : forall acc vs, crawl rule evals acc = Val vs ->
  exists n, vs = acc ++ repeat (LINT rule) n ++ (if existsb raised evals then [UNEXPECTED rule] else []).
Proof.
  induction evals as [|[k|x] r IH]; intros acc vs H; cbn [crawl existsb raised orb] in *.
  - inversion H. exists 0. rewrite app_nil_r. reflexivity.
  - destruct (IH _ _ H) as [n ->]. exists (k + n). rewrite repeat_app, !app_assoc. reflexivity.
  - exists 0. destruct x; inversion H; reflexivity.
Qed.

Lemma repeat_lint_no_unexpected rule n :
  existsb is_unexpected (repeat (LINT rule) n) = false /\ filter is_unexpected (repeat (LINT rule) n) = [].
Proof. induction n; [split; reflexivity|exact IHn]. Qed.
