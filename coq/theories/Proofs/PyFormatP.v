(* Lemmas about Model/PyFormat.v: on the format strings described by safe_list, the regex rewrite followed by
   str.format renders what the documented convention (dotted names are keys of the `sqlfluff` mapping) says.
   Three steps: on the text of a token list the regex rewrite is rw_tok on the tokens (hack_list_top); the parser inverts unparse
   on well-formed token lists (parse_list); rendering the rewritten list with get_field is rendering the original with
   get_field_spec (build_rw).  hack_ok, scan_ok, pwf_both are Props so that Forall of them can be the induction hypothesis for
   the token list nested in a field's spec. *)
From SF Require Import Base.Prelude Model.PyFormat.

Definition sp_toks (sp : option (list tok)) : list tok := match sp with Some l => l | None => [] end.

Section TokInd.
  Variable P : tok -> Prop.
  Hypothesis HC : forall c, P (TChr c).
  Hypothesis HE : forall c, P (TEsc c).
  Hypothesis HF : forall n cv sp, Forall P (sp_toks sp) -> P (TFld n cv sp).
  Fixpoint tok_ind' (t : tok) : P t :=
    match t with
    | TChr c => HC c
    | TEsc c => HE c
    | TFld n cv sp =>
        HF n cv sp
          (match sp as s return Forall P (sp_toks s) with
           | Some l => (fix go (l : list tok) : Forall P l :=
                          match l with
                          | [] => Forall_nil P
                          | x :: r => Forall_cons x (tok_ind' x) (go r)
                          end) l
           | None => Forall_nil P
           end)
    end.
End TokInd.

Lemma eqb_false_of_neq (a b : cp) : a <> b -> N.eqb a b = false.
Proof. intros H. apply N.eqb_neq. exact H. Qed.

Lemma has_c_app c a b : has_c c (a ++ b) = has_c c a || has_c c b.
Proof. apply existsb_app. Qed.

Lemma has_c_cons c x s : has_c c (x :: s) = false -> N.eqb x c = false /\ has_c c s = false.
Proof. rewrite N.eqb_sym. apply orb_false_iff. Qed.

Definition name_specials : text := [c_lb; c_rb; c_colon; c_bang; c_lsq; c_rsq].

Lemma name_char_spec x : name_char x = negb (has_c x name_specials).
Proof.
  cbn [has_c name_specials existsb]. rewrite orb_false_r, !negb_orb, !andb_assoc. reflexivity.
Qed.

Lemma name_char_avoids x c : name_char x = true -> has_c c name_specials = true -> N.eqb x c = false.
Proof.
  intros Hx Hc. destruct (N.eqb_spec x c) as [->|]; [|reflexivity]. rewrite name_char_spec, Hc in Hx. discriminate.
Qed.

Lemma plain_char_iff c : plain_char c = true <-> N.eqb c c_lb = false /\ N.eqb c c_rb = false.
Proof. unfold plain_char. rewrite andb_true_iff, !negb_true_iff. reflexivity. Qed.

Lemma name_avoids c n : has_c c name_specials = true -> forallb name_char n = true -> has_c c n = false.
Proof.
  intros Hc. induction n as [|x n IH]; [reflexivity|]. cbn [forallb has_c existsb]. intros H. apply andb_true_iff in H as [Hx Hn].
  rewrite N.eqb_sym, (name_char_avoids x c Hx Hc). apply IH, Hn.
Qed.

Lemma hack_skip : forall a k b, hack_aux (length a + k) (a ++ b) = hack_aux k b.
Proof. induction a as [|c a IH]; intros k b; cbn [length app hack_aux Nat.add]; [reflexivity|apply IH]. Qed.

Lemma hack_copy1 c b : N.eqb c c_lb = false -> hack_aux 0 (c :: b) = c :: hack_aux 0 b.
Proof. intros H. cbn [hack_aux]. rewrite H. reflexivity. Qed.

Lemma hack_copy : forall a b, has_c c_lb a = false -> hack_aux 0 (a ++ b) = a ++ hack_aux 0 b.
Proof.
  induction a as [|c a IH]; intros b H; cbn [app]; [reflexivity|].
  apply has_c_cons in H as [H1 H2]. rewrite (hack_copy1 c _ H1), (IH b H2). reflexivity.
Qed.

Definition stopper (c : cp) : bool := N.eqb c c_colon || N.eqb c c_rb.

Lemma span_run_app : forall a c r, has_c c_colon a = false -> has_c c_rb a = false -> stopper c = true ->
  span_run (a ++ c :: r) = (a, c :: r).
Proof.
  induction a as [|x a IH]; intros c r H1 H2 Hc; cbn [app span_run].
  - unfold stopper in Hc. rewrite Hc. reflexivity.
  - apply has_c_cons in H1 as [X1 H1]. apply has_c_cons in H2 as [X2 H2]. rewrite X1, X2, (IH c r H1 H2 Hc). reflexivity.
Qed.

Lemma span_nonws_app : forall a b, forallb (fun x => negb (is_space x)) a = true ->
  span_nonws (a ++ b) = (a ++ fst (span_nonws b), snd (span_nonws b)).
Proof.
  induction a as [|x a IH]; intros b Ha; cbn [app].
  - destruct (span_nonws b); reflexivity.
  - cbn [forallb] in Ha. apply andb_true_iff in Ha as [H1 H2]. apply negb_true_iff in H1.
    cbn [span_nonws]. rewrite H1. rewrite (IH b H2). reflexivity.
Qed.

Lemma split_last_rb_none : forall w, has_c c_rb w = false -> split_last_rb w = None.
Proof.
  induction w as [|x w IH]; intros H; cbn [split_last_rb]; [reflexivity|].
  apply has_c_cons in H as [H1 H2]. rewrite (IH H2), H1. reflexivity.
Qed.

Lemma split_last_rb_app : forall a w, has_c c_rb w = false -> split_last_rb (a ++ c_rb :: w) = Some (a, w).
Proof.
  induction a as [|x a IH]; intros w H; cbn [app split_last_rb].
  - rewrite (split_last_rb_none w H). reflexivity.
  - rewrite (IH w H). reflexivity.
Qed.

(* try_match once group 1 is known: g has no ':' or close brace and one of them follows *)
Lemma try_match_run g c r : has_c c_colon g = false -> has_c c_rb g = false -> stopper c = true ->
  try_match (g ++ c :: r) =
  if has_dot g then
    if N.eqb c c_rb then Some (g, [], S (length g))
    else match split_last_rb (fst (span_nonws r)) with
         | Some (u, _) => Some (g, c_colon :: u, length g + S (length u) + 1)
         | None => None
         end
  else None.
Proof.
  intros H1 H2 Hc. unfold try_match. rewrite (span_run_app g c r H1 H2 Hc). destruct (span_nonws r). reflexivity.
Qed.

(* right-nests every ++ and :: *)
Ltac norm_app := cbn [app]; repeat (rewrite <- app_assoc; cbn [app]).

(* what the rewrite puts in place of a dotted name *)
Definition magic (n : text) : text := t_sqlfluff ++ c_lsq :: n ++ [c_rsq].

Lemma hack_no_match r : try_match r = None -> hack_aux 0 (c_lb :: r) = c_lb :: hack_aux 0 r.
Proof. intros H. cbn [hack_aux]. rewrite N.eqb_refl, H. reflexivity. Qed.

Lemma hack_undotted a c r :
  has_c c_lb a = false -> has_c c_colon a = false -> has_c c_rb a = false -> has_dot a = false -> stopper c = true ->
  hack_aux 0 (c_lb :: a ++ c :: r) = c_lb :: a ++ hack_aux 0 (c :: r).
Proof.
  intros H0 H1 H2 Hd Hc. rewrite hack_no_match.
  - rewrite (hack_copy a _ H0). reflexivity.
  - rewrite try_match_run, Hd by assumption. reflexivity.
Qed.

Lemma hack_dotted n rest : has_c c_colon n = false -> has_c c_rb n = false -> has_dot n = true ->
  hack_aux 0 (c_lb :: n ++ c_rb :: rest) = c_lb :: magic n ++ c_rb :: hack_aux 0 rest.
Proof.
  intros H1 H2 Hd. cbn [hack_aux]. rewrite N.eqb_refl, try_match_run, Hd, N.eqb_refl by trivial.
  rewrite <- Nat.add_1_r, hack_skip. unfold magic. norm_app. reflexivity.
Qed.

Lemma hack_dotted_spec n u rest : has_c c_colon n = false -> has_c c_rb n = false -> has_dot n = true ->
  forallb (fun x => negb (is_space x)) u = true -> has_c c_rb (fst (span_nonws rest)) = false ->
  hack_aux 0 (c_lb :: n ++ c_colon :: u ++ c_rb :: rest)
  = c_lb :: magic n ++ c_colon :: u ++ c_rb :: hack_aux 0 rest.
Proof.
  intros H1 H2 Hd Hu Hr. cbn [hack_aux]. rewrite N.eqb_refl, try_match_run, Hd by trivial.
  change (N.eqb c_colon c_rb) with false. cbv iota.
  rewrite (span_nonws_app u _ Hu). cbn [span_nonws fst]. change (is_space c_rb) with false. cbv iota.
  destruct (span_nonws rest) as [w r0]. cbn [fst] in *. rewrite (split_last_rb_app u _ Hr), <- Nat.add_assoc, hack_skip.
  cbn [Nat.add hack_aux]. rewrite hack_skip. unfold magic. norm_app. reflexivity.
Qed.

Lemma hack_escape rest : has_dot (fst (span_run rest)) = false ->
  hack_aux 0 (c_lb :: c_lb :: rest) = c_lb :: c_lb :: hack_aux 0 rest.
Proof.
  intros H. destruct (span_run rest) as [a b] eqn:E. cbn [fst] in H.
  rewrite (hack_no_match (c_lb :: rest)), (hack_no_match rest); [reflexivity| |]; unfold try_match.
  - rewrite E, H. reflexivity.
  - cbn [span_run]. change (N.eqb c_lb c_colon || N.eqb c_lb c_rb) with false. cbv iota. rewrite E.
    change (has_dot (c_lb :: a)) with (has_dot a). rewrite H. reflexivity.
Qed.

Definition conv_ok (cv : option cp) : bool := match cv with Some c => conv_char c | None => true end.
Definition conv_text (cv : option cp) : text := match cv with Some c => [c_bang; c] | None => [] end.
Definition spec_text (sp : option (list tok)) : text := match sp with Some l => c_colon :: unparse l | None => [] end.

Lemma unparse_fld n cv sp : unparse_tok (TFld n cv sp) = c_lb :: n ++ conv_text cv ++ spec_text sp ++ [c_rb].
Proof. reflexivity. Qed.

Lemma unparse_fld_app n cv sp rest :
  unparse_tok (TFld n cv sp) ++ rest = c_lb :: n ++ conv_text cv ++ spec_text sp ++ c_rb :: rest.
Proof. rewrite unparse_fld. norm_app. reflexivity. Qed.

Lemma rw_fld n cv sp :
  rw_tok (TFld n cv sp) = if has_dot n then TFld (magic n) cv sp else TFld n cv (option_map (map rw_tok) sp).
Proof. reflexivity. Qed.

Lemma unparse_cons t l : unparse (t :: l) = unparse_tok t ++ unparse l.
Proof. reflexivity. Qed.

Lemma safe_fld top n cv sp :
  safe_tok top (TFld n cv sp) =
  forallb name_char n &&
  (if has_dot n then
     not_int n && match cv, sp with
                  | None, None => true
                  | None, Some l => top && forallb spec_plain_tok l
                  | _, _ => false
                  end
   else conv_ok cv && match sp with None => true | Some l => forallb (safe_tok false) l end).
Proof. reflexivity. Qed.

Lemma safe_fld_inv top n cv sp : safe_tok top (TFld n cv sp) = true ->
  forallb name_char n = true
  /\ (has_dot n = true /\ not_int n = true /\ cv = None /\ forallb spec_plain_tok (sp_toks sp) = true
      \/ has_dot n = false /\ conv_ok cv = true /\ forallb (safe_tok false) (sp_toks sp) = true).
Proof.
  rewrite safe_fld. intros H. apply andb_true_iff in H as [Hn H]. split; [exact Hn|]. destruct (has_dot n); [left|right].
  - apply andb_true_iff in H as [Hi H]. destruct cv; [discriminate|]. repeat split; trivial.
    destruct sp as [l|]; [|reflexivity]. apply andb_true_iff in H as [_ H]. exact H.
  - apply andb_true_iff in H as [Hc Hl]. repeat split; trivial. destruct sp; [exact Hl|reflexivity].
Qed.

Lemma follow_nested t rest : safe_tok false t = true -> follow_ok t rest = true.
Proof.
  destruct t as [c|c|n cv sp]; [reflexivity|discriminate|]. rewrite safe_fld. cbn [follow_ok].
  destruct sp as [l|]; [|reflexivity]. destruct (has_dot n); [|reflexivity].
  destruct cv; cbn [andb]; rewrite !andb_false_r; discriminate.
Qed.

Lemma spec_plain_chars l : forallb spec_plain_tok l = true ->
  has_c c_lb (unparse l) = false /\ forallb (fun c => negb (is_space c)) (unparse l) = true.
Proof.
  induction l as [|t r IH]; intros H; [split; reflexivity|]. cbn [forallb] in H. apply andb_true_iff in H as [H1 H2].
  destruct t as [c|c|n cv sp]; try discriminate. destruct (IH H2) as [I1 I2]. cbn [spec_plain_tok] in H1.
  apply andb_true_iff in H1 as [P1 P2]. apply plain_char_iff in P1 as [P1 _].
  rewrite unparse_cons. cbn [unparse_tok app forallb has_c existsb]. rewrite N.eqb_sym, P1, P2. split; assumption.
Qed.

Lemma head_avoids n cv : forallb name_char n = true -> has_dot n = false -> conv_ok cv = true ->
  has_c c_lb (n ++ conv_text cv) = false /\ has_c c_colon (n ++ conv_text cv) = false
  /\ has_c c_rb (n ++ conv_text cv) = false /\ has_dot (n ++ conv_text cv) = false.
Proof.
  intros Hn Hd Hc. unfold has_dot in *. rewrite !has_c_app, Hd, !(name_avoids _ n) by trivial.
  destruct cv as [c|]; [|repeat split; reflexivity]. cbn [conv_ok] in Hc. unfold conv_char in Hc.
  rewrite !andb_true_iff, !negb_true_iff in Hc. destruct Hc as [[[C1 C2] C3] C4].
  cbn [conv_text has_c existsb]. rewrite !(N.eqb_sym _ c), C1, C2, C3, C4. repeat split; reflexivity.
Qed.

Definition hack_ok (t : tok) : Prop :=
  forall top rest, safe_tok top t = true -> follow_ok t rest = true ->
    hack_aux 0 (unparse_tok t ++ rest) = unparse_tok (rw_tok t) ++ hack_aux 0 rest.

Lemma hack_list_nested : forall l, Forall hack_ok l -> forallb (safe_tok false) l = true ->
  forall tail, hack_aux 0 (unparse l ++ tail) = unparse (map rw_tok l) ++ hack_aux 0 tail.
Proof.
  induction l as [|t r IH]; intros HF Hs tail; [reflexivity|].
  inversion HF as [|? ? Ht Hr]. cbn [forallb] in Hs. apply andb_true_iff in Hs as [S1 S2].
  cbn [map]. rewrite !unparse_cons, <- !app_assoc, (Ht false _ S1 (follow_nested _ _ S1)), (IH Hr S2 tail). reflexivity.
Qed.

Lemma hack_tok : forall t, hack_ok t.
Proof.
  induction t as [c|c|n cv sp IH] using tok_ind'; intros top rest Hs Hf.
  - apply hack_copy1, (plain_char_iff c), Hs.
  - cbn [safe_tok] in Hs. apply andb_true_iff in Hs as [_ Hc].
    apply orb_true_iff in Hc as [Hc|Hc]; apply N.eqb_eq in Hc; subst c.
    + apply hack_escape. cbn [follow_ok] in Hf. rewrite N.eqb_refl in Hf. apply negb_true_iff in Hf. exact Hf.
    + cbn [unparse_tok rw_tok app]. rewrite !hack_copy1 by reflexivity. reflexivity.
  - destruct (safe_fld_inv _ _ _ _ Hs) as [Hn [[Hd [_ [-> Hl]]]|[Hd [Hc Hl]]]]; rewrite rw_fld, Hd, !unparse_fld_app.
    + (* dotted: the regex matches the whole field *)
      destruct sp as [l|].
      * apply spec_plain_chars in Hl as [_ Hl].
        cbn [follow_ok] in Hf. rewrite Hd in Hf. apply negb_true_iff in Hf. apply hack_dotted_spec; auto using name_avoids.
      * apply hack_dotted; auto using name_avoids.
    + (* not dotted: no match at this brace; the name and conversion are copied, the spec is rewritten inside *)
      destruct (head_avoids n cv Hn Hd Hc) as [A1 [A2 [A3 A4]]].
      rewrite !(app_assoc n). destruct sp as [l|]; cbn [option_map spec_text app].
      * rewrite (hack_undotted _ c_colon), (hack_copy1 c_colon), (hack_list_nested l IH Hl), (hack_copy1 c_rb) by trivial.
        reflexivity.
      * rewrite (hack_undotted _ c_rb), (hack_copy1 c_rb) by trivial. reflexivity.
Qed.

Lemma hack_list_top : forall l, safe_list l = true -> dot_hack (unparse l) = unparse (map rw_tok l).
Proof.
  unfold dot_hack. induction l as [|t r IH]; intros H; [reflexivity|].
  cbn [safe_list] in H. apply andb_true_iff in H as [H H3]. apply andb_true_iff in H as [H1 H2].
  cbn [map]. rewrite !unparse_cons, (hack_tok t true (unparse r) H1 H2), (IH H3). reflexivity.
Qed.

Definition pre (a : text) (o : option (text * text)) : option (text * text) :=
  match o with Some (sp, rest) => Some (a ++ sp, rest) | None => None end.

Lemma pre_pre a b o : pre a (pre b o) = pre (a ++ b) o.
Proof. destruct o as [[sp rest]|]; cbn [pre]; [rewrite app_assoc|]; reflexivity. Qed.

Lemma pre_nil o : pre [] o = o.
Proof. destruct o as [[sp rest]|]; reflexivity. Qed.

Lemma scan_spec_plain1 c d tail : plain_char c = true -> scan_spec d (c :: tail) = pre [c] (scan_spec d tail).
Proof.
  intros H. apply plain_char_iff in H as [H1 H2]. cbn [scan_spec]. rewrite H2, H1. reflexivity.
Qed.

Lemma scan_spec_plain : forall a d tail, forallb plain_char a = true -> scan_spec d (a ++ tail) = pre a (scan_spec d tail).
Proof.
  induction a as [|c a IH]; intros d tail H; cbn [app]; [symmetry; apply pre_nil|].
  cbn [forallb] in H. apply andb_true_iff in H as [H1 H2]. rewrite (scan_spec_plain1 c d _ H1), (IH d tail H2). apply pre_pre.
Qed.

Lemma scan_spec_open d rest : scan_spec d (c_lb :: rest) = pre [c_lb] (scan_spec (S d) rest).
Proof. reflexivity. Qed.

Lemma scan_spec_close d rest : scan_spec (S d) (c_rb :: rest) = pre [c_rb] (scan_spec d rest).
Proof. reflexivity. Qed.

(* a name that the field-name scanner reads back whole *)
Definition pname (n : text) : Prop :=
  forallb plain_char n = true
  /\ forall t r1, is_term t = true -> scan_name false (n ++ t :: r1) = Some (n, t, r1).
Definition pconv (cv : option cp) : Prop := match cv with Some c => plain_char c = true | None => True end.

(* what the parser reads back: top level or inside a format spec *)
Inductive pwf : bool -> tok -> Prop :=
| pwf_chr top c : plain_char c = true -> pwf top (TChr c)
| pwf_esc c : c = c_lb \/ c = c_rb -> pwf true (TEsc c)
| pwf_fld top n cv sp : pname n -> pconv cv -> Forall (pwf false) (sp_toks sp) -> pwf top (TFld n cv sp).

Definition sp_body (sp : option (list tok)) : text := unparse (sp_toks sp).
Definition item_of (t : tok) : item :=
  match t with
  | TChr c => Lit c
  | TEsc c => Lit c
  | TFld n cv sp => Fld n cv (sp_body sp) (has_c c_lb (sp_body sp))
  end.

Lemma conv_text_plain cv : pconv cv -> forallb plain_char (conv_text cv) = true.
Proof. destruct cv as [c|]; cbn [pconv conv_text forallb]; [|reflexivity]. intros H. rewrite H. reflexivity. Qed.

Definition scan_ok (t : tok) : Prop :=
  pwf false t -> forall d tail, scan_spec d (unparse_tok t ++ tail) = pre (unparse_tok t) (scan_spec d tail).

Lemma scan_spec_list : forall l, Forall scan_ok l -> Forall (pwf false) l ->
  forall d tail, scan_spec d (unparse l ++ tail) = pre (unparse l) (scan_spec d tail).
Proof.
  induction l as [|t r IH]; intros HF Hw d tail; [symmetry; apply pre_nil|].
  inversion HF as [|? ? Ht Hr]. inversion Hw as [|? ? W1 W2].
  rewrite unparse_cons, <- app_assoc, (Ht W1), (IH Hr W2). apply pre_pre.
Qed.

Lemma scan_spec_tok : forall t, scan_ok t.
Proof.
  induction t as [c|c|n cv sp IH] using tok_ind'; intros Hw d tail; inversion Hw as [? ? Hc| |? ? ? ? [Hn _] Hc Hl].
  - apply scan_spec_plain1, Hc.
  - (* an open brace raises the depth; name, conversion and colon are plain; the spec is skipped by induction; the close brace lowers it *)
    rewrite unparse_fld_app, scan_spec_open, (scan_spec_plain n), (scan_spec_plain (conv_text cv)) by auto using conv_text_plain.
    destruct sp as [l|]; cbn [spec_text app].
    + rewrite (scan_spec_plain1 c_colon), (scan_spec_list l IH Hl), scan_spec_close, !pre_pre by reflexivity.
      f_equal. norm_app. reflexivity.
    + rewrite scan_spec_close, !pre_pre. f_equal. norm_app. reflexivity.
Qed.

Lemma scan_spec_body l rest : Forall (pwf false) l -> scan_spec 0 (unparse l ++ c_rb :: rest) = Some (unparse l, rest).
Proof.
  intros Hw. rewrite (scan_spec_list l (proj2 (Forall_forall _ _) (fun t _ => scan_spec_tok t)) Hw).
  cbn [scan_spec]. rewrite N.eqb_refl. cbn [pre]. rewrite app_nil_r. reflexivity.
Qed.

Lemma parse_skip : forall a b, parse_aux (length (a ++ b) - length b) (a ++ b) = parse_aux 0 b.
Proof.
  intros a b. rewrite app_length, Nat.add_sub.
  induction a as [|c a IH]; cbn [length app parse_aux]; [reflexivity|apply IH].
Qed.

(* a field that parses is a field: the character after the open brace is not another open brace *)
Lemma parse_open a it rest : parse_field (a ++ rest) = Some (it, rest) ->
  parse_aux 0 (c_lb :: a ++ rest) = it :: parse_aux 0 rest.
Proof.
  intros H. rewrite <- (parse_skip a rest). destruct (a ++ rest) as [|c2 r]; [discriminate|]. cbn [parse_aux]. rewrite N.eqb_refl.
  destruct (N.eqb_spec c2 c_lb) as [->|]; [discriminate|]. rewrite H. reflexivity.
Qed.

Lemma parse_field_tok n cv sp rest : pname n -> pconv cv -> Forall (pwf false) (sp_toks sp) ->
  parse_field ((n ++ conv_text cv ++ spec_text sp ++ [c_rb]) ++ rest) = Some (item_of (TFld n cv sp), rest).
Proof.
  intros [_ Hn] Hc Hl. norm_app. unfold parse_field. cbn [item_of].
  destruct cv as [c|]; cbn [conv_text app].
  - rewrite (Hn c_bang _ eq_refl).
    destruct sp as [l|]; cbn [spec_text app].
    + rewrite N.eqb_refl. unfold spec_item. rewrite (scan_spec_body l rest Hl). reflexivity.
    + rewrite N.eqb_refl. reflexivity.
  - destruct sp as [l|]; cbn [spec_text app].
    + rewrite (Hn c_colon _ eq_refl). rewrite N.eqb_refl.
      unfold spec_item. rewrite (scan_spec_body l rest Hl). reflexivity.
    + rewrite (Hn c_rb _ eq_refl). rewrite N.eqb_refl. reflexivity.
Qed.

Lemma parse_tok top t rest : pwf top t -> parse_aux 0 (unparse_tok t ++ rest) = item_of t :: parse_aux 0 rest.
Proof.
  intros Hw. destruct Hw as [top c Hc|c [-> | ->]|top n cv sp Hn Hc Hl].
  - apply plain_char_iff in Hc as [H1 H2]. cbn [unparse_tok app parse_aux item_of]. rewrite H1, H2. reflexivity.
  - reflexivity.
  - reflexivity.
  - rewrite unparse_fld. apply parse_open, parse_field_tok; assumption.
Qed.

Lemma parse_list top : forall l, Forall (pwf top) l -> parse_fmt (unparse l) = map item_of l.
Proof.
  unfold parse_fmt. induction l as [|t r IH]; intros H; [reflexivity|]. inversion H as [|? ? H1 H2].
  cbn [map]. rewrite unparse_cons, (parse_tok top t _ H1), (IH H2). reflexivity.
Qed.

Lemma name_plain n : forallb name_char n = true -> forallb plain_char n = true.
Proof.
  rewrite !forallb_forall. intros H c Hc. apply plain_char_iff. split; apply name_char_avoids; auto.
Qed.

Lemma scan_name_app : forall a s, forallb name_char a = true ->
  scan_name false (a ++ s) = match scan_name false s with Some (n, t, rest) => Some (a ++ n, t, rest) | None => None end.
Proof.
  induction a as [|c a IH]; intros s H; cbn [app]; [destruct (scan_name false s) as [[[n t] rest]|]; reflexivity|].
  cbn [forallb] in H. apply andb_true_iff in H as [Hc Ha]. cbn [scan_name]. unfold is_term.
  rewrite !(name_char_avoids c _ Hc), (IH s Ha) by reflexivity. cbn [orb]. destruct (scan_name false s) as [[[n t] rest]|]; reflexivity.
Qed.

Lemma scan_name_term t r : is_term t = true -> scan_name false (t :: r) = Some ([], t, r).
Proof.
  intros H. cbn [scan_name]. rewrite H. destruct (N.eqb_spec t c_lb) as [->|]; [discriminate|reflexivity].
Qed.

Lemma scan_name_index : forall n s, has_c c_rsq n = false ->
  scan_name true (n ++ c_rsq :: s) = match scan_name false s with Some (m, t, rest) => Some (n ++ c_rsq :: m, t, rest) | None => None end.
Proof.
  induction n as [|c n IH]; intros s H; cbn [app scan_name].
  - rewrite N.eqb_refl. reflexivity.
  - apply has_c_cons in H as [H1 H2]. rewrite H1. cbn [negb]. rewrite (IH s H2). destruct (scan_name false s) as [[[m t] rest]|]; reflexivity.
Qed.

Lemma pname_clean n : forallb name_char n = true -> pname n.
Proof.
  intros H. split; [apply name_plain, H|]. intros t r1 Ht. rewrite (scan_name_app n _ H), (scan_name_term t r1 Ht), app_nil_r. reflexivity.
Qed.

Lemma pname_magic n : forallb name_char n = true -> pname (magic n).
Proof.
  intros H. split.
  - unfold magic. rewrite forallb_app. cbn [forallb]. rewrite forallb_app, (name_plain n H). reflexivity.
  - intros t r1 Ht. unfold magic. norm_app. rewrite (scan_name_app t_sqlfluff) by reflexivity. cbn [scan_name].
    rewrite (scan_name_index n _ (name_avoids c_rsq n eq_refl H)), (scan_name_term t r1 Ht). reflexivity.
Qed.

Lemma spec_plain_pwf l : forallb spec_plain_tok l = true -> Forall (pwf false) l.
Proof.
  rewrite forallb_forall, Forall_forall. intros H t Ht. specialize (H t Ht). destruct t as [c| |]; try discriminate.
  apply andb_true_iff in H as [H _]. constructor. exact H.
Qed.

Definition pwf_both (t : tok) : Prop := forall top, safe_tok top t = true -> pwf top t /\ pwf top (rw_tok t).

Lemma safe_pwf_list top : forall l, Forall pwf_both l -> forallb (safe_tok top) l = true ->
  Forall (pwf top) l /\ Forall (pwf top) (map rw_tok l).
Proof.
  induction l as [|t r IH]; intros HF H; [split; constructor|]. inversion HF as [|? ? Ht Hr]; subst.
  cbn [forallb] in H. apply andb_true_iff in H as [H1 H2]. destruct (Ht top H1), (IH Hr H2). split; constructor; assumption.
Qed.

Lemma safe_pwf : forall t, pwf_both t.
Proof.
  induction t as [c|c|n cv sp IH] using tok_ind'; intros top Hs.
  - split; constructor; exact Hs.
  - cbn [safe_tok] in Hs. apply andb_true_iff in Hs as [-> Hc]. apply orb_true_iff in Hc. rewrite !N.eqb_eq in Hc.
    split; constructor; exact Hc.
  - destruct (safe_fld_inv _ _ _ _ Hs) as [Hn [[Hd [_ [-> Hl]]]|[Hd [Hc Hl]]]]; rewrite rw_fld, Hd.
    + (* dotted: only the name changes *)
      apply spec_plain_pwf in Hl. split; constructor; auto using pname_clean, pname_magic; exact I.
    + assert (Hc' : pconv cv).
      { destruct cv as [c|]; [|exact I]. cbn [conv_ok] in Hc. unfold conv_char in Hc.
        apply andb_true_iff in Hc as [Hc _]. apply andb_true_iff in Hc as [Hc _]. exact Hc. }
      destruct (safe_pwf_list false _ IH Hl) as [W1 W2]. split; constructor; auto using pname_clean. destruct sp; exact W2.
Qed.

Lemma safe_list_toks : forall l, safe_list l = true -> forallb (safe_tok true) l = true.
Proof.
  induction l as [|t r IH]; intros H; [reflexivity|]. cbn [safe_list] in H. apply andb_true_iff in H as [H H2].
  apply andb_true_iff in H as [H1 _]. cbn [forallb]. rewrite H1, (IH H2). reflexivity.
Qed.

Lemma unparse_rw_nolb : forall l, has_c c_lb (unparse l) = false -> map rw_tok l = l.
Proof.
  induction l as [|t r IH]; intros H; [reflexivity|]. rewrite unparse_cons, has_c_app in H. apply orb_false_iff in H as [H1 H2].
  cbn [map]. rewrite (IH H2). destruct t as [c|c|n cv sp]; [reflexivity|reflexivity|discriminate H1].
Qed.

Lemma unparse_rw_haslb : forall l, has_c c_lb (unparse (map rw_tok l)) = has_c c_lb (unparse l).
Proof.
  induction l as [|t r IH]; [reflexivity|]. cbn [map]. rewrite !unparse_cons, !has_c_app, IH. f_equal.
  destruct t as [c|c|n cv sp]; [reflexivity|reflexivity|]. rewrite rw_fld. destruct (has_dot n); reflexivity.
Qed.

Section RenderP.
  Variable val : Type.
  Variable kw : text -> option val.
  Variable getattr_ : val -> text -> res val.
  Variable getitem_int : val -> N -> res val.
  Variable getitem_str : val -> text -> res val.
  Variable convert : cp -> val -> res val.
  Variable fmt : val -> text -> res text.

  Notation gf := (get_field val kw getattr_ getitem_int getitem_str).
  Notation gfs := (get_field_spec val kw getattr_ getitem_int getitem_str).
  Notation bld := (build val convert fmt).

  (* the loop inside build, with the lookup and the recursive call as parameters; they are section variables so that
     build unfolds to it (build_S) *)
  Section Items.
    Variable g : text -> res val.
    Variable sub : text -> res text.
    Fixpoint render_items (its : list item) : res text :=
      match its with
      | [] => Ok []
      | Lit c :: r => do t <- render_items r; Ok (c :: t)
      | Bad :: _ => Err EValue
      | Fld n cv sp ex :: r =>
          do v <- g n;
          do v' <- do_conv val convert cv v;
          do sp' <- (if ex then sub sp else Ok sp);
          do t <- fmt v' sp';
          do t' <- render_items r;
          Ok (t ++ t')
      end.
  End Items.

  Lemma build_S g d s : bld g (S d) s = render_items g (bld g d) (parse_fmt s).
  Proof. reflexivity. Qed.

  Lemma walk_item : forall n acc v r, has_c c_rsq n = false ->
    walk val getattr_ getitem_int getitem_str (WItem acc) v (n ++ c_rsq :: r) =
    (do v' <- fin_item val getitem_int getitem_str v (rev n ++ acc); walk val getattr_ getitem_int getitem_str WSep v' r).
  Proof.
    induction n as [|c n IH]; intros acc v r H; cbn [app walk].
    - rewrite N.eqb_refl. reflexivity.
    - apply has_c_cons in H as [H1 H2]. rewrite H1, (IH (c :: acc) v r H2). cbn [rev]. rewrite <- app_assoc. reflexivity.
  Qed.

  (* the rewritten name is looked up as ONE key of the sqlfluff mapping *)
  Lemma get_field_magic n : forallb name_char n = true -> has_dot n = true -> not_int n = true ->
    gf (magic n) = gfs n.
  Proof.
    intros Hn Hd Hi. pose proof (name_avoids c_rsq n eq_refl Hn) as R1.
    unfold get_field_spec, dotted. rewrite Hd, R1, (name_avoids c_lsq n eq_refl Hn). cbn [negb andb].
    unfold get_field. change (split_first (magic n)) with (t_sqlfluff, c_lsq :: n ++ [c_rsq]). cbv iota.
    change (get_integer t_sqlfluff) with (@Ok (option N) None). cbn [bind]. unfold t_sqlfluff at 1. (* shows the first part non-empty: get_field's IndexError test reduces *)
    destruct (kw t_sqlfluff) as [v|]; [|reflexivity].
    cbn [walk]. rewrite N.eqb_refl.
    rewrite (walk_item n [] v [] R1), app_nil_r. unfold fin_item. destruct (rev n) as [|c0 rn] eqn:Er.
    - apply (f_equal (@rev cp)) in Er. rewrite rev_involutive in Er. subst n. discriminate Hd.
    - rewrite <- Er, rev_involutive. unfold not_int in Hi.
      destruct (get_integer n) as [[i|]|e]; try discriminate. cbn [bind walk].
      destruct (getitem_str v n); reflexivity.
  Qed.

  Lemma get_field_nodot n : has_dot n = false -> gfs n = gf n.
  Proof. intros H. unfold get_field_spec, dotted. rewrite H. reflexivity. Qed.

  Lemma render_tok t top (sub1 sub2 : text -> res text) r1 r2 : safe_tok top t = true ->
    (forall l, forallb (safe_tok false) l = true -> sub1 (unparse (map rw_tok l)) = sub2 (unparse l)) ->
    render_items gf sub1 r1 = render_items gfs sub2 r2 ->
    render_items gf sub1 (item_of (rw_tok t) :: r1) = render_items gfs sub2 (item_of t :: r2).
  Proof.
    intros Hs Hsub Hr. destruct t as [c|c|n cv sp]; [cbn [rw_tok item_of render_items]; rewrite Hr; reflexivity ..|].
    destruct (safe_fld_inv _ _ _ _ Hs) as [Hn [[Hd [Hi [-> Hl]]]|[Hd [Hc Hl]]]]; rewrite rw_fld, Hd; cbn [item_of render_items].
    - apply spec_plain_chars in Hl as [Hl _]. unfold sp_body. rewrite (get_field_magic n Hn Hd Hi), Hr, Hl. reflexivity.
    - rewrite (get_field_nodot n Hd), Hr.
      destruct sp as [l|]; [|reflexivity]. unfold sp_body. cbn [option_map sp_toks].
      (* a nested spec is expanded only if it holds an open brace; whether it does is the same after rw_tok, which without one is the identity *)
      rewrite unparse_rw_haslb. destruct (has_c c_lb (unparse l)) eqn:El.
      * rewrite (Hsub l Hl). reflexivity.
      * rewrite (unparse_rw_nolb l El). reflexivity.
  Qed.

  Lemma render_list top (sub1 sub2 : text -> res text) : forall l, forallb (safe_tok top) l = true ->
    (forall l', forallb (safe_tok false) l' = true -> sub1 (unparse (map rw_tok l')) = sub2 (unparse l')) ->
    render_items gf sub1 (map item_of (map rw_tok l)) = render_items gfs sub2 (map item_of l).
  Proof.
    induction l as [|t r IH]; intros H Hsub; [reflexivity|]. cbn [forallb] in H. apply andb_true_iff in H as [H1 H2].
    cbn [map]. apply (render_tok t top); auto.
  Qed.

  Lemma build_rw : forall d top l, forallb (safe_tok top) l = true -> bld gf d (unparse (map rw_tok l)) = bld gfs d (unparse l).
  Proof.
    induction d as [|d IH]; intros top l H; [reflexivity|]. rewrite !build_S.
    destruct (safe_pwf_list top l (proj2 (Forall_forall _ _) (fun t _ => safe_pwf t)) H) as [W1 W2].
    rewrite (parse_list top _ W1), (parse_list top _ W2). apply (render_list top); [exact H|]. intros l'. apply IH.
  Qed.

  (* the rewrite followed by str.format is the specified rendering, error for error *)
  Theorem dot_hack_format : forall l, safe_list l = true ->
    py_format val kw getattr_ getitem_int getitem_str convert fmt (dot_hack (unparse l))
    = spec_render val kw getattr_ getitem_int getitem_str convert fmt (unparse l).
  Proof. intros l H. rewrite (hack_list_top l H). apply build_rw with (top := true), safe_list_toks, H. Qed.
End RenderP.

(* witnesses (C09, the _refuted theorems): outside that fragment the rewrite is wrong.  Context: sqlfluff = {"a.b": "zz", "x.y": "w"}, a = "A"
   (value 0 = the mapping, 1 = "zz", 2 = "w", 3 = "A", 4 = repr("zz")); every needed oracle answer is in the table. *)
Definition w_tab : otab :=
  mkOtab [(t_sqlfluff, 0); ([97]%N, 3)]
         [(3, [98]%N, Err ERuntime)]                                  (* "A".b -> AttributeError *)
         []
         [(0, [97; 46; 98]%N, Ok 1); (0, [120; 46; 121]%N, Ok 2);
          (0, [123; 32; 123; 97; 46; 98]%N, Err EKey); (0, [97; 46; 98; 33; 114]%N, Err EKey)]
         [(114%N, 1, Ok 4)]
         [(1, [], Ok [122; 122]%N); (2, [], Ok [119]%N); (4, [], Ok [39; 122; 122; 39]%N);
          (1, [32; 62; 52]%N, Ok [32; 32; 122; 122]%N); (1, [62; 52]%N, Ok [32; 32; 122; 122]%N)].

(* "{{ {a.b}" : valid, renders "{ zz"; the regex matches at the escaped brace *)
Definition w_escaped : text := [123; 123; 32; 123; 97; 46; 98; 125]%N.

(* "{a.b!r}" : the conversion is captured into the key *)
Definition w_conversion : text := [123; 97; 46; 98; 33; 114; 125]%N.

(* "{a.b: >4}" : a spec with a space is not matched at all; str.format then evaluates "A".b (AttributeError, reported as a templating error since the repair of the error funnel) *)
Definition w_spec_space : text := [123; 97; 46; 98; 58; 32; 62; 52; 125]%N.

(* "{a.b:>4}{x.y}" : group 2 runs to the last close brace and swallows the next dotted field *)
Definition w_adjacent : text := [123; 97; 46; 98; 58; 62; 52; 125; 123; 120; 46; 121; 125]%N.
