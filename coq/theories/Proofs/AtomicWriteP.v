From SF Require Import Base.Prelude Model.AtomicWrite.

Definition wf0 (s : fsst) : Prop := tmp s = None.
Definition new_file suffix new (s : fsst) : fobj :=
  (new, match mode_of suffix s with Some m => m | None => default_tmp_mode end).

Definition target_ok suffix new (s0 s : fsst) : Prop :=
  tgt s = tgt s0 \/ tgt s = Some (new_file suffix new s0).

(* the file system after a successful write of (s, new) *)
Definition written suffix (p : fsst * text) : fsst :=
  mkFs (Some (new_file suffix (snd p) (fst p))) (inp (fst p)) None.

(* Why the write is atomic: the rename is the only operation that touches the output path, it comes last, and by then
   the temp file is complete.  [run_ops_app] cuts the run into  stat / the ops on the temp file / rename. *)
Section Run.
  Variables (new : text) (m : option nat) (f : fault).

  Lemma run_ops_app l1 l2 : forall idx s,
    run_ops new (l1 ++ l2) idx m f s
    = match run_ops new l1 idx m f s with Done s' => run_ops new l2 (idx + length l1) m f s' | o => o end.
  Proof.
    induction l1 as [|o l1 IH]; intros idx s; cbn [app run_ops length]; [rewrite Nat.add_0_r; reflexivity|].
    rewrite <- Nat.add_succ_comm.
    destruct f as [|k j|k j after]; [apply IH| |]; (destruct (idx =? k); [destruct o; reflexivity|apply IH]).
  Qed.

  Lemma apply_op_frame o s : o <> ORename ->
    tgt (apply_op new o m s) = tgt s /\ inp (apply_op new o m s) = inp s.
  Proof.
    destruct o; try (split; reflexivity); [|congruence].
    cbn [apply_op]. destruct m, (tmp s) as [[]|]; split; reflexivity.
  Qed.

  (* the ops inside the try block, before the rename: whatever happens, output and input path are as they were, and an
     exception leaves no temp file *)
  Lemma run_ops_frame l : ~ In OStat l -> ~ In ORename l -> forall idx s,
    match run_ops new l idx m f s with
    | Done s' => s' = fold_left (fun s o => apply_op new o m s) l s
    | Raised s' => s' = cleanup s
    | Died s' => tgt s' = tgt s /\ inp s' = inp s
    end.
  Proof.
    induction l as [|o l IH]; intros Hs Hr idx s; [reflexivity|].
    assert (Ho : o <> OStat /\ o <> ORename) by (split; intros ->; [apply Hs|apply Hr]; left; reflexivity).
    destruct Ho as [Ho1 Ho2]. destruct (apply_op_frame o s Ho2) as [Et Ei].
    assert (Step : match run_ops new l (S idx) m f (apply_op new o m s) with
                   | Done s' => s' = fold_left (fun s o => apply_op new o m s) (o :: l) s
                   | Raised s' => s' = cleanup s
                   | Died s' => tgt s' = tgt s /\ inp s' = inp s
                   end).
    { specialize (IH (fun H => Hs (or_intror H)) (fun H => Hr (or_intror H)) (S idx) (apply_op new o m s)).
      destruct (run_ops new l (S idx) m f (apply_op new o m s)); [exact IH| |rewrite <- Et, <- Ei; exact IH].
      rewrite IH. unfold cleanup. rewrite Et, Ei. reflexivity. }
    cbn [run_ops]. destruct f as [|k j|k j after]; [exact Step| |]; (destruct (idx =? k); [|exact Step]).
    - destruct o; try reflexivity; congruence.
    - destruct after; [destruct o; split; assumption|destruct o; split; reflexivity].
  Qed.

  Lemma run_stat idx s : st_of (run_ops new [OStat] idx m f s) = s.
  Proof. cbn [run_ops]. destruct f as [|k j|k j after]; [reflexivity| |]; destruct (idx =? k); try destruct after; reflexivity. Qed.
End Run.

(* Exactly what a write leaves behind: on success the new file; after an exception the file system as it was; after a
   death the input path as it was and the output path old -- possibly with a temp file beside it -- or the new file. *)
Theorem safe_write_outcome suffix new f s0 : wf0 s0 ->
  match safe_write suffix new f s0 with
  | Done s => s = written suffix (s0, new)
  | Raised s => s = s0
  | Died s => inp s = inp s0 /\ (tgt s = tgt s0 \/ s = written suffix (s0, new))
  end.
Proof.
  destruct s0 as [t i tm]. unfold wf0, written. cbn [tmp inp tgt fst snd]. intros ->.
  unfold safe_write, new_file. set (s0 := mkFs t i None). set (m := mode_of suffix s0).
  set (body := [OCreate; OWrite; OFlush; OFsync; OClose; OChmod]).
  change ops with (([OStat] ++ body) ++ [ORename]). rewrite 2 run_ops_app.
  (* the stat changes nothing *)
  pose proof (run_stat new m f 0 s0) as H0.
  destruct (run_ops new [OStat] 0 m f s0) as [s|s|s]; cbn [st_of] in H0; subst s; [|reflexivity|auto].
  (* the temp file is made; at the end it holds the new content with the mode of the input *)
  assert (H1 := run_ops_frame new m f body ltac:(cbn; intuition discriminate) ltac:(cbn; intuition discriminate) 1 s0).
  destruct (run_ops new body _ m f s0) as [s|s|s]; [|exact H1|tauto].
  assert (s = mkFs t i (Some (new, match m with Some md => md | None => default_tmp_mode end))) as ->
    by (subst s; cbn; destruct m; reflexivity).
  (* the rename comes last: what each fault leaves *)
  cbn [run_ops apply_op tmp tgt inp cleanup app length Nat.add].
  destruct f as [|k j|k j after]; [reflexivity| |]; destruct (_ =? k); try destruct after; cbn [tgt inp]; auto.
Qed.

(* Several files: each is left as one write leaves it or untouched ... *)
Theorem write_all_each suffix : forall files i kf f,
  Forall (fun p => wf0 (fst p)) files ->
  Forall2 (fun p s' => inp s' = inp (fst p) /\ (tgt s' = tgt (fst p) \/ s' = written suffix p))
          files (fst (write_all suffix files i kf f)).
Proof.
  induction files as [|[s new] r IH]; intros i kf f Hf; cbn [write_all fst]; [constructor|].
  inversion Hf as [|? ? Hs Hr]; subst.
  assert (U : Forall2 (fun p s' => inp s' = inp (fst p) /\ (tgt s' = tgt (fst p) \/ s' = written suffix p)) r (map fst r))
    by (clear; induction r; constructor; auto).
  pose proof (safe_write_outcome suffix new (if i =? kf then f else FNone) s Hs) as H.
  destruct (safe_write suffix new (if i =? kf then f else FNone) s) as [s'|s'|s']; cbn [fst].
  - specialize (IH (S i) kf f Hr). destruct (write_all suffix r (S i) kf f) as [rest ok].
    constructor; [subst s'; auto|exact IH].
  - constructor; [subst s'; auto|exact U].
  - constructor; [exact H|exact U].
Qed.

(* ... and without a fault all are written *)
Theorem write_all_nofault suffix : forall files i kf,
  Forall (fun p => wf0 (fst p)) files -> write_all suffix files i kf FNone = (map (written suffix) files, true).
Proof.
  induction files as [|[s new] r IH]; intros i kf Hf; cbn [write_all map]; [reflexivity|].
  inversion Hf as [|? ? Hs Hr]; subst.
  replace (if i =? kf then FNone else FNone) with FNone by (destruct (i =? kf); reflexivity).
  pose proof (safe_write_outcome suffix new FNone s Hs) as H.
  destruct (safe_write suffix new FNone s) as [s'|s'|s'] eqn:E; [|discriminate E|discriminate E].
  rewrite H, (IH (S i) kf Hr). reflexivity.
Qed.

Example atomic_example :
  let s := mkFs (Some ([1;2]%N, 420)) None None in
  safe_write false [7;8;9]%N (FDie 2 1 false) s = Died (mkFs (Some ([1;2]%N, 420)) None (Some ([7]%N, 384)))
  /\ safe_write false [7;8;9]%N (FRaise 6 0) s = Raised s
  /\ safe_write false [7;8;9]%N FNone s = Done (mkFs (Some ([7;8;9]%N, 420)) None None).
Proof. vm_compute. repeat split. Qed.
