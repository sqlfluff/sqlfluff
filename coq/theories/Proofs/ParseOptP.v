From SF Require Import Base.Prelude Model.ParseOpt.

Section LMP.
  Variables (idx max_idx : nat) (has_terms : bool) (next_code : nat -> nat) (term_at : nat -> bool) (nseg : nat).
  Hypothesis Hidx : idx < max_idx.

  Notation go := (lm_go idx max_idx has_terms next_code term_at nseg).

  (* "simple() is complete": an option that pruning drops would not have matched anything (its match is zero-length) *)
  Definition prune_safe (opts : list outcome) : Prop := forall o, In o opts -> o_keep o = false -> o_stop o <= idx.

  (* The early exit on the last option is an optimisation only: continuing into the empty rest returns the same option. *)
  Lemma go_cons o rest best :
    go (o :: rest) best
    = if o_truthy o && (o_stop o =? max_idx) then Some o
      else if (match best with Some b => olen idx b | None => 0 end) <? olen idx o then
        if has_terms && ((next_code (o_stop o) =? nseg) || term_at (next_code (o_stop o))) then Some o else go rest (Some o)
      else go rest best.
  Proof. destruct rest; [|reflexivity]. cbn [lm_go]. destruct (has_terms && _); reflexivity. Qed.

  Lemma go_prune opts : prune_safe opts -> forall best, go (filter o_keep opts) best = go opts best.
  Proof.
    induction opts as [|o rest IH]; intros Hs best; cbn [filter]; [reflexivity|].
    assert (Hrest : prune_safe rest) by (intros x Hx; apply Hs; right; exact Hx).
    rewrite (go_cons o rest). destruct (o_keep o) eqn:Ek.
    - rewrite go_cons, !(IH Hrest). reflexivity.
    - (* a dropped option stops at or before idx: it neither reaches max_idx nor is longer than the best so far *)
      assert (Hz : o_stop o <= idx) by (apply Hs; [left; reflexivity|exact Ek]).
      assert (E1 : (o_stop o =? max_idx) = false) by (apply Nat.eqb_neq, Nat.lt_neq, (Nat.le_lt_trans _ idx); assumption).
      assert (E2 : ((match best with Some b => olen idx b | None => 0 end) <? olen idx o) = false)
        by (apply Nat.ltb_ge; unfold olen at 1; apply Nat.sub_0_le in Hz; rewrite Hz; apply Nat.le_0_l).
      rewrite E1, E2, andb_false_r. apply IH; exact Hrest.
  Qed.

  Theorem prune_sound opts :
    prune_safe opts ->
    longest_match idx max_idx has_terms next_code term_at nseg true opts
    = longest_match idx max_idx has_terms next_code term_at nseg false opts.
  Proof.
    intros Hs. unfold longest_match. destruct opts as [|o rest]; [reflexivity|].
    cbn [orb]. destruct (idx =? max_idx); [reflexivity|].
    rewrite <- (go_prune (o :: rest) Hs None). destruct (filter o_keep (o :: rest)); reflexivity.
  Qed.
End LMP.

(* without completeness pruning changes the result *)
Lemma prune_unsound_example :
  longest_match 0 5 false (fun n => n) (fun _ => false) 5 true [{| o_stop := 2; o_truthy := true; o_keep := false; o_id := 0 |}]
  <> longest_match 0 5 false (fun n => n) (fun _ => false) 5 false [{| o_stop := 2; o_truthy := true; o_keep := false; o_id := 0 |}].
Proof. vm_compute. discriminate. Qed.

Section CacheP.
  Variables (K C V : Type) (keq : K -> K -> bool) (f : K -> C -> V).
  Hypothesis keq_spec : forall a b, keq a b = true <-> a = b.

  (* every cached value is what a fresh match would give for every context that is going to ask for that key *)
  Definition cache_ok (m : list (K * V)) (reqs : list (K * C)) : Prop :=
    forall k c v, In (k, c) reqs -> lookup K V keq m k = Some v -> v = f k c.
  (* requests with the same key agree (the part of the context the key omits does not influence the match) *)
  Definition key_determines (reqs : list (K * C)) : Prop :=
    forall k c c', In (k, c) reqs -> In (k, c') reqs -> f k c = f k c'.

  Theorem cache_transparent m reqs :
    cache_ok m reqs -> key_determines reqs -> run_cached K C V keq f m reqs = run_fresh K C V f reqs.
  Proof.
    revert m. induction reqs as [|[k c] r IH]; intros m Hm Hk; cbn [run_cached run_fresh map fst snd]; [reflexivity|].
    assert (Hk' : key_determines r) by (intros k1 c1 c2 H1 H2; apply Hk; right; assumption).
    destruct (lookup K V keq m k) as [v|] eqn:El.
    - f_equal; [apply (Hm k c v); [left; reflexivity|exact El]|].
      apply IH; [|exact Hk']. intros k1 c1 v1 H1 H2. apply (Hm k1 c1 v1); [right; exact H1|exact H2].
    - f_equal. apply IH; [|exact Hk'].
      intros k1 c1 v1 H1 H2. cbn [lookup] in H2. destruct (keq k k1) eqn:E.
      + apply keq_spec in E. subst k1. inversion H2. apply Hk; [left; reflexivity|right; exact H1].
      + apply (Hm k1 c1 v1); [right; exact H1|exact H2].
  Qed.
End CacheP.

(* when the omitted context does matter, a hit returns a stale answer *)
Lemma cache_not_transparent_example :
  run_cached nat nat nat Nat.eqb (fun k c => k + c) [] [(1, 0); (1, 5)] <> run_fresh nat nat nat (fun k c => k + c) [(1, 0); (1, 5)].
Proof. vm_compute. discriminate. Qed.
