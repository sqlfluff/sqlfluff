From SF Require Import Base.Prelude Model.Glob.

(* the loop inside gmatch at a star, by name: `gmatch (PStar :: p') s` is `star_loop p' s` by computation *)
Definition star_loop (p' : list ptok) : text -> bool :=
  fix star (s : text) : bool := gmatch p' s || match s with [] => false | _ :: s' => star s' end.

Lemma star_loop_unfold p' s :
  star_loop p' s = gmatch p' s || match s with [] => false | _ :: s' => star_loop p' s' end.
Proof. destruct s; reflexivity. Qed.

Lemma star_loop_spec p' : forall s, star_loop p' s = true <-> exists s1 s2, s = s1 ++ s2 /\ gmatch p' s2 = true.
Proof.
  induction s as [|c s IH]; rewrite star_loop_unfold.
  - rewrite orb_false_r. split.
    + intros H. exists [], []. split; [reflexivity|exact H].
    + intros [s1 [s2 [E H]]]. symmetry in E. apply app_eq_nil in E as [-> ->]. exact H.
  - rewrite orb_true_iff. split.
    + intros [H|H].
      * exists [], (c :: s). split; [reflexivity|exact H].
      * apply IH in H as [s1 [s2 [E H]]]. exists (c :: s1), s2. split; [cbn; rewrite E; reflexivity|exact H].
    + intros [s1 [s2 [E H]]]. destruct s1 as [|d s1].
      * cbn in E. subst s2. left; exact H.
      * cbn in E. inversion E; subst. right. apply IH. exists s1, s2. split; [reflexivity|exact H].
Qed.

Theorem gmatch_correct : forall p s, gmatch p s = true <-> gsem p s.
Proof.
  split.
  - revert s. induction p as [|[| |c|neg items] p IH]; intros s H.
    + destruct s; [constructor|discriminate].
    + apply star_loop_spec in H as [s1 [s2 [-> H]]]. constructor. apply IH, H.
    + destruct s as [|d s]; [discriminate|]. constructor. apply IH, H.
    + destruct s as [|d s]; [discriminate|]. apply andb_true_iff in H as [E H]. apply N.eqb_eq in E. subst d.
      constructor. apply IH, H.
    + destruct s as [|d s]; [discriminate|]. apply andb_true_iff in H as [E H]. constructor; [exact E|apply IH, H].
  - induction 1 as [|p s1 s2 _ IH|p c s _ IH|p c s _ IH|p neg items c s E _ IH].
    + reflexivity.
    + apply star_loop_spec. exists s1, s2. split; [reflexivity|exact IH].
    + exact IH.
    + cbn [gmatch]. rewrite N.eqb_refl. exact IH.
    + cbn [gmatch]. rewrite E. exact IH.
Qed.

Lemma parse_nometa : forall fuel s, length s <= fuel -> has_meta s = false -> parse_pat_fuel fuel s = map PLit s.
Proof.
  induction fuel as [|f IH]; intros s Hl Hm.
  - destruct s; [reflexivity|inversion Hl].
  - destruct s as [|c r]; [reflexivity|]. cbn [length] in Hl. cbn [has_meta existsb] in Hm.
    apply orb_false_iff in Hm as [Hc Hr]. apply orb_false_iff in Hc as [Hc Hc3]. apply orb_false_iff in Hc as [Hc1 Hc2].
    cbn [parse_pat_fuel]. rewrite Hc1, Hc2, Hc3. cbn [map]. f_equal. apply IH; [apply le_S_n; exact Hl|exact Hr].
Qed.

Lemma gmatch_lits : forall s t, gmatch (map PLit s) t = text_eqb s t.
Proof.
  induction s as [|c s IH]; intros [|d t]; cbn [map gmatch text_eqb]; try reflexivity.
  rewrite IH. reflexivity.
Qed.

Example glob_examples :
  fnmatch [76;84;48;49]%N [76;84;48;42]%N = true /\ fnmatch [76;84;48;49]%N [76;63;48;91;48;45;50;93]%N = true
  /\ fnmatch [76;84;48;49]%N [91;33;76;93;42]%N = false /\ fnmatch [97]%N [42;42;97;42]%N = true.
Proof. vm_compute. repeat split. Qed.
