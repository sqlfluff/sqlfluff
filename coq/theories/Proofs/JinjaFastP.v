From SF Require Import Base.Prelude Model.JinjaFast.

(* data_prefix cuts s in two, and what is left is empty exactly when s has no marker: the fast-path test is exactly "the whole
   file is one data token" *)
Lemma data_prefix_spec s :
  s = fst (data_prefix s) ++ snd (data_prefix s) /\ (if has_marker s then snd (data_prefix s) <> [] else snd (data_prefix s) = []).
Proof.
  induction s as [|a r [IH1 IH2]]; [split; reflexivity|]. cbn [has_marker data_prefix].
  destruct (starts_marker (a :: r)); cbn [orb fst snd app]; [split; [reflexivity|discriminate]|].
  destruct (data_prefix r) as [d rest]. cbn [fst snd app] in *. split; [f_equal; exact IH1|exact IH2].
Qed.

Theorem fast_path_sound s : has_marker s = false -> render_data true (fst (data_prefix s)) = s /\ snd (data_prefix s) = [].
Proof.
  intros H. destruct (data_prefix_spec s) as [E1 E2]. rewrite H in E2. rewrite E2, app_nil_r in E1.
  split; [symmetry; exact E1|exact E2].
Qed.

(* after CR LF the function recurses two characters on: the induction carries the claim for s and for its tail *)
Lemma normalise_no_cr_tl s : has_cr (normalise_newlines s) = false /\ has_cr (normalise_newlines (tl s)) = false.
Proof.
  unfold has_cr. induction s as [|c r [IH1 IH2]]; [split; reflexivity|]. split; [|exact IH1]. cbn [normalise_newlines].
  destruct (N.eqb c 13) eqn:Ec; cbn [existsb].
  - cbn [N.eqb Pos.eqb orb]. destruct r as [|d r']; [reflexivity|]. destruct (N.eqb d 10); [exact IH2|exact IH1].
  - rewrite N.eqb_sym, Ec. exact IH1.
Qed.
Theorem normalise_no_cr s : has_cr (normalise_newlines s) = false.
Proof. apply normalise_no_cr_tl. Qed.

Theorem normalise_id_without_cr s : has_cr s = false -> normalise_newlines s = s.
Proof.
  induction s as [|c r IH]; [reflexivity|]. cbn [existsb normalise_newlines]. intros H.
  apply orb_false_iff in H as [H1 H2]. rewrite N.eqb_sym, H1. rewrite (IH H2). reflexivity.
Qed.

Corollary normalise_idempotent s : normalise_newlines (normalise_newlines s) = normalise_newlines s.
Proof. apply normalise_id_without_cr, normalise_no_cr. Qed.
