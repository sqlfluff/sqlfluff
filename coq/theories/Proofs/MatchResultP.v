(* MatchResult.apply on a certified result (wf_b): it succeeds and the forest it builds holds exactly the tokens of the result's
   span, contiguous at every depth (apply_spec); the same for the file node built by root_parse (root_parse_spec).  The two
   combinators every grammar builds results with, MatchResult.wrap and MatchResult.append, keep the certificate when used
   without extra inserts on classed, non-empty, ordered results (wf_b_children). *)
From SF Require Import Base.Prelude Base.Sort Model.MatchResult.
From Coq Require Import Lia.

Section MrInd.
  Variable P : mr -> Prop.
  Hypothesis H : forall s e c ins ch, Forall P ch -> P (MR s e c ins ch).
  Fixpoint mr_ind' (m : mr) : P m :=
    match m with
    | MR s e c ins ch =>
        H s e c ins ch ((fix go (l : list mr) : Forall P l :=
                           match l with [] => Forall_nil _ | x :: r => Forall_cons _ (mr_ind' x) (go r) end) ch)
    end.
End MrInd.

(* apply and wf_b on a result of positive length.  The local `fix amap` of both definitions is convertible to `map`, so once the
   length test is decided the equations hold by reflexivity. *)
Definition trigs (n : nat) (ins : list (nat * nat)) (ch : list mr) : list (nat * trig) :=
  map (fun i => (fst i, TIns (snd i))) ins ++ map (fun x => (mstart x, TChild (mstop x) (apply n x))) ch.
Definition ctrig_of (n : nat) (x : mr) : nat * ctrig := (mstart x, CChild (mstop x) (wf_b n x)).
Definition ctrigs (n : nat) (ins : list (nat * nat)) (ch : list mr) : list (nat * ctrig) :=
  map (fun i => (fst i, CIns)) ins ++ map (ctrig_of n) ch.

Lemma apply_pos n s e c ins ch : s < e ->
  apply n (MR s e c ins ch) =
  if n <? e then Err EAssert
  else match walk n None s [] (ssort key_leb (trigs n ins ch)) with
       | Err er => Err er
       | Ok (mx, acc) =>
           let acc' := if mx <? e then acc ++ toks mx (e - mx) else acc in
           match c with None => Ok acc' | Some k => Ok [Node k acc'] end
       end.
Proof. intros H. apply Nat.sub_gt, Nat.eqb_neq in H. cbn [apply]. rewrite H. reflexivity. Qed.

Lemma wf_b_pos n s e c ins ch : s < e ->
  wf_b n (MR s e c ins ch) =
  (e <=? n) && match cwalk n e None s (ssort ckey_leb (ctrigs n ins ch)) with Some mx => mx <=? e | None => false end.
Proof. intros H. apply Nat.sub_gt, Nat.eqb_neq in H. cbn [wf_b]. rewrite H. reflexivity. Qed.

Lemma tokens_of_node c l : tokens_of (Node c l) = tokens_of_l l.
Proof. reflexivity. Qed.

Lemma tokens_app a b : tokens_of_l (a ++ b) = tokens_of_l a ++ tokens_of_l b.
Proof. apply flat_map_app. Qed.

Lemma tokens_toks a b : tokens_of_l (toks a b) = seq a b.
Proof.
  unfold tokens_of_l, toks. revert a. induction b as [|b IH]; intros a; cbn [seq map flat_map]; [reflexivity|].
  rewrite IH. reflexivity.
Qed.

Lemma seq_split s a b : s <= a -> a <= b -> seq s (a - s) ++ seq a (b - a) = seq s (b - s).
Proof.
  intros H1 H2. replace (b - s) with ((a - s) + (b - a)) by lia. rewrite seq_app. do 2 f_equal. lia.
Qed.

(* every node of the produced forest covers a contiguous, increasing run of tokens: children are in positional order and a node
   spans exactly its children *)
Inductive contig : tree -> Prop :=
| c_tok i : contig (Tok i)
| c_meta m p : contig (Meta m p)
| c_node c l a b : tokens_of_l l = seq a b -> Forall contig l -> contig (Node c l).

(* the forest l holds exactly the tokens a..b-1, in order, at every depth: the invariant of apply's accumulator *)
Definition covers (a b : nat) (l : list tree) : Prop :=
  a <= b /\ tokens_of_l l = seq a (b - a) /\ Forall contig l.

Lemma covers_nil a : covers a a [].
Proof. split; [lia|]. rewrite Nat.sub_diag. split; [reflexivity|constructor]. Qed.

Lemma covers_app a b c l1 l2 : covers a b l1 -> covers b c l2 -> covers a c (l1 ++ l2).
Proof.
  intros (H1 & T1 & C1) (H2 & T2 & C2). split; [lia|].
  split; [rewrite tokens_app, T1, T2; apply seq_split; assumption|apply Forall_app; split; assumption].
Qed.

Lemma covers_toks a b k : b = a + k -> covers a b (toks a k).
Proof.
  intros ->. split; [apply Nat.le_add_r|]. split; [rewrite Nat.add_comm, Nat.add_sub; apply tokens_toks|].
  apply Forall_forall. intros x Hx. apply in_map_iff in Hx as [i [<- _]]. constructor.
Qed.

Lemma covers_meta a m p : covers a a [Meta m p].
Proof. split; [lia|]. rewrite Nat.sub_diag. split; [reflexivity|repeat constructor]. Qed.

Lemma covers_node a b c l : covers a b l -> covers a b [Node c l].
Proof.
  intros (H & T & C). split; [exact H|]. unfold tokens_of_l. cbn [flat_map]. rewrite app_nil_r, tokens_of_node.
  split; [exact T|]. repeat econstructor; eassumption.
Qed.

(* apply's triggers and the certificate's, list against list: same keys, and a child the certificate accepts has been applied to
   a forest covering its span *)
Definition trig_rel (k : nat) (t : trig) (c : ctrig) : Prop :=
  match t, c with
  | TIns _, CIns => True
  | TChild st r, CChild st' ok => st = st' /\ (ok = true -> exists l, r = Ok l /\ covers k st l)
  | _, _ => False
  end.
Definition keyed_rel (a : nat * trig) (b : nat * ctrig) : Prop := fst a = fst b /\ trig_rel (fst a) (snd a) (snd b).

Lemma keyed_rel_leb a b a' b' : keyed_rel a b -> keyed_rel a' b' -> key_leb a a' = ckey_leb b b'.
Proof. intros [E _] [E' _]. unfold key_leb, ckey_leb. rewrite E, E'. reflexivity. Qed.

Lemma walk_follows n e s ts cs :
  Forall2 keyed_rel ts cs ->
  forall prev mx acc mx',
    cwalk n e prev mx cs = Some mx' -> covers s mx acc ->
    exists acc', walk n prev mx acc ts = Ok (mx', acc') /\ covers s mx' acc'.
Proof.
  intros HF. induction HF as [|[k t] [k' c] ts cs [Hk HR] HF IH]; intros prev mx acc mx' Hc Hacc.
  - inversion Hc; subst. exists acc. split; [reflexivity|exact Hacc].
  - cbn [fst snd] in Hk, HR. subst k'. cbn [cwalk] in Hc. cbn [walk].
    set (same := match prev with Some p => p =? k | None => false end) in *.
    destruct (negb same && (k <? mx)); [discriminate|].
    destruct (e <? k); [discriminate|].
    set (mx1 := if same then mx else if mx <? k then k else mx) in *.
    set (acc1 := if same then acc else if mx <? k then acc ++ toks mx (k - mx) else acc).
    (* the gap before key k is filled with its tokens *)
    assert (Hacc1 : covers s mx1 acc1).
    { unfold mx1, acc1. destruct same; [exact Hacc|]. destruct (Nat.ltb_spec mx k); [|exact Hacc].
      eapply covers_app; [exact Hacc|apply covers_toks; lia]. }
    clearbody mx1 acc1.
    destruct t as [m|st r], c as [|st' ok]; cbn [trig_rel] in HR; try contradiction.
    + destruct (point_ok n k); [|discriminate].
      apply (IH _ _ _ _ Hc). eapply covers_app; [exact Hacc1|apply covers_meta].
    + destruct HR as [<- HR].
      destruct ok; [|discriminate]. destruct (Nat.eqb_spec mx1 k) as [E|]; [subst mx1|discriminate].
      cbn [andb] in Hc. destruct ((k <=? st) && (st <=? e)); [|discriminate].
      destruct (HR eq_refl) as [l [-> Hl]].
      apply (IH _ _ _ _ Hc). eapply covers_app; eassumption.
Qed.

Lemma cwalk_bound n e ts : forall prev mx mx', cwalk n e prev mx ts = Some mx' -> mx <= e -> mx' <= e.
Proof.
  induction ts as [|[k t] r IH]; intros prev mx mx' Hc Hle; cbn [cwalk] in Hc.
  - inversion Hc; subst; exact Hle.
  - destruct (negb _ && (k <? mx)); [discriminate|]. destruct (e <? k) eqn:Eek; [discriminate|].
    apply Nat.ltb_ge in Eek.
    destruct t as [|st ok].
    + destruct (point_ok n k); [|discriminate]. eapply IH; [exact Hc|].
      destruct (match prev with Some p => p =? k | None => false end); [exact Hle|]. destruct (mx <? k); lia.
    + destruct (ok && _ && (k <=? st) && (st <=? e)) eqn:E; [|discriminate].
      apply andb_true_iff in E as [_ E]. apply Nat.leb_le in E. eapply IH; [exact Hc|exact E].
Qed.

Lemma zero_len_ok n s ins :
  forallb (fun i => (fst i =? s) && point_ok n (fst i)) ins = true ->
  exists l, zero_len_inserts n s ins = Ok l /\ covers s s l.
Proof.
  induction ins as [|[i m] r IH]; cbn [forallb zero_len_inserts fst]; intros H.
  - exists []. split; [reflexivity|apply covers_nil].
  - apply andb_true_iff in H as [H1 H2]. apply andb_true_iff in H1 as [Ha Hb].
    rewrite Ha, Hb. cbn [negb]. destruct (IH H2) as [l [-> Hl]]. exists (Meta m i :: l). split; [reflexivity|].
    apply (covers_app s s s [Meta m i] l); [apply covers_meta|exact Hl].
Qed.

Theorem apply_spec n m : wf_b n m = true -> exists ts, apply n m = Ok ts /\ covers (mstart m) (mstop m) ts.
Proof.
  induction m as [s e c ins ch IHch] using mr_ind'. intros Hwf. cbn [mstart mstop].
  destruct (Nat.eqb_spec (e - s) 0) as [Ez|Ez].
  - cbn [wf_b] in Hwf. cbn [apply]. rewrite Ez in *. cbn [Nat.eqb] in *.
    apply andb_true_iff in Hwf as [Hwf Hins]. apply andb_true_iff in Hwf as [Hwf Hch].
    apply andb_true_iff in Hwf as [Hwf Hc]. apply andb_true_iff in Hwf as [Hse _]. apply Nat.leb_le in Hse.
    assert (e = s) as -> by lia.
    destruct c; [discriminate|]. destruct ch; [|discriminate]. cbn [is_nil negb].
    destruct ins as [|i0 ins]; cbn [is_nil orb] in *.
    + exists []. split; [reflexivity|apply covers_nil].
    + apply andb_true_iff in Hins as [Hn Hall]. destruct n; [discriminate|]. apply zero_len_ok. exact Hall.
  - assert (Hse : s < e) by lia. rewrite wf_b_pos in Hwf by exact Hse. rewrite apply_pos by exact Hse.
    apply andb_true_iff in Hwf as [Hen Hwf]. rewrite Nat.leb_antisym in Hen. apply negb_true_iff in Hen. rewrite Hen.
    destruct (cwalk n e None s _) as [mx|] eqn:Hc; [|discriminate]. apply Nat.leb_le in Hwf.
    assert (HF : Forall2 keyed_rel (trigs n ins ch) (ctrigs n ins ch)).
    { apply Forall2_app.
      - clear. induction ins; cbn [map]; repeat constructor. assumption.
      - clear - IHch. induction IHch as [|x r Hx _ IH]; cbn [map]; constructor; [|exact IH].
        split; [reflexivity|]. split; [reflexivity|exact Hx]. }
    apply (Forall2_ssort key_leb ckey_leb keyed_rel keyed_rel_leb) in HF.
    destruct (walk_follows n e s _ _ HF None s [] mx Hc (covers_nil s)) as [acc [-> Hacc]].
    (* the tail after the last trigger *)
    assert (Hfin : covers s e (if mx <? e then acc ++ toks mx (e - mx) else acc)).
    { destruct (Nat.ltb_spec mx e); [eapply covers_app; [exact Hacc|apply covers_toks; lia]|].
      replace e with mx by lia. exact Hacc. }
    destruct c as [k|].
    + eexists. split; [reflexivity|]. apply covers_node. exact Hfin.
    + eexists. split; [reflexivity|]. exact Hfin.
Qed.

Theorem apply_lossless n m :
  wf_b n m = true -> exists ts, apply n m = Ok ts /\ tokens_of_l ts = seq (mstart m) (mlen m).
Proof. intros H. destruct (apply_spec n m H) as [ts [E (_ & T & _)]]. exists ts. split; assumption. Qed.

Example wf_example : wf_b 6 (MR 1 5 (Some 7) [(1, 0); (5, 1)] [MR 1 2 (Some 3) [] []; MR 3 5 None [(4, 0)] []]) = true.
Proof. reflexivity. Qed.
Example apply_example :
  apply 6 (MR 1 5 (Some 7) [(1, 0); (5, 1)] [MR 1 2 (Some 3) [] []; MR 3 5 None [(4, 0)] []])
  = Ok [Node 7 [Meta 0 1; Node 3 [Tok 1]; Tok 2; Tok 3; Meta 0 4; Tok 4; Meta 1 5]].
Proof. reflexivity. Qed.
(* overlapping children are rejected by the certificate and make apply duplicate or fail *)
Example overlap_rejected : wf_b 6 (MR 0 4 None [] [MR 0 3 (Some 1) [] []; MR 2 4 (Some 1) [] []]) = false.
Proof. reflexivity. Qed.

Lemma first_code_off_le is_code a cnt : forall off, first_code_off is_code a cnt off <= off + cnt.
Proof.
  induction cnt as [|c IH]; intros off; cbn [first_code_off]; [lia|].
  destruct (is_code (a + off)); [lia|]. destruct c; [lia|]. specialize (IH (S off)). lia.
Qed.

Lemma scan_start_le is_code : forall cnt i, scan_start is_code i cnt <= i + Nat.pred cnt.
Proof.
  induction cnt as [|c IH]; intros i; cbn [scan_start]; [lia|].
  destruct (is_code i); [lia|]. destruct c; [lia|]. specialize (IH (S i)). cbn [Nat.pred] in *. lia.
Qed.

Lemma scan_end_bounds is_code : forall cnt e, e - Nat.pred cnt <= scan_end is_code e cnt <= e.
Proof.
  induction cnt as [|c IH]; intros e; cbn [scan_end]; [lia|].
  destruct (is_code (e - 1)); [lia|]. destruct c; [lia|]. specialize (IH (e - 1)). cbn [Nat.pred] in *. lia.
Qed.

Lemma idx_bounds n is_code : start_idx n is_code <= end_idx n is_code <= n.
Proof.
  unfold end_idx. pose proof (scan_start_le is_code n 0) as Hs. fold (start_idx n is_code) in Hs.
  pose proof (scan_end_bounds is_code (S n - start_idx n is_code) n). destruct n; cbn [Nat.pred] in *; lia.
Qed.

Theorem root_parse_spec n is_code m t :
  (truthy m = true -> wf_b n m = true /\ mstart m = start_idx n is_code /\ mstop m <= end_idx n is_code) ->
  root_parse n is_code m = Ok t -> exists l, t = Node cls_file l /\ covers 0 n l.
Proof.
  intros Hm. destruct (idx_bounds n is_code) as [Hse Hen]. unfold root_parse. set (s := start_idx n is_code) in *. set (e := end_idx n is_code) in *.
  destruct (s =? e).
  - intros [= <-]. eexists. split; [reflexivity|]. apply covers_toks. reflexivity.
  - destruct (apply n m) as [matched|er] eqn:Eap; [|discriminate].
    intros [= <-]. eexists. split; [reflexivity|].
    apply (covers_app 0 s n); [apply covers_toks; reflexivity|]. apply (covers_app s e n); [|apply covers_toks; lia].
    destruct (truthy m); cbn [negb]; [|apply covers_node, covers_toks; lia].
    destruct (Hm eq_refl) as (Hwf & Hs & He).
    destruct (apply_spec n m Hwf) as [ts [Eap' Hcov]]. rewrite Eap in Eap'. injection Eap' as <-. rewrite Hs in Hcov.
    destruct (Nat.ltb_spec (mstop m) e) as [Hlt|Hge].
    + pose proof (first_code_off_le is_code (mstop m) (e - mstop m) 0) as Hk.
      set (k := first_code_off is_code (mstop m) (e - mstop m) 0) in *.
      apply (covers_app s (mstop m) e); [exact Hcov|].
      apply (covers_app (mstop m) (mstop m + k) e).
      * apply covers_toks. reflexivity.
      * apply covers_node, covers_toks. lia.
    + apply (covers_app s (mstop m) e); [exact Hcov|apply covers_toks; lia].
Qed.

Theorem root_parse_lossless n is_code m t :
  start_idx n is_code <= end_idx n is_code -> end_idx n is_code <= n ->
  (truthy m = true -> wf_b n m = true /\ mstart m = start_idx n is_code /\ mstop m <= end_idx n is_code) ->
  root_parse n is_code m = Ok t -> tokens_of t = seq 0 n.
Proof.
  intros _ _ Hm H. destruct (root_parse_spec n is_code m t Hm H) as [l [-> (_ & T & _)]].
  rewrite tokens_of_node, T. f_equal. lia.
Qed.

(* A sufficient condition for the certificate (wf_b_children): no inserts, and the children are certified, non-empty, in order and
   disjoint inside [s, e).  Their starts are then strictly increasing, so the stable sort leaves the trigger list as it is. *)
Fixpoint chained (a : nat) (ch : list mr) (e : nat) : Prop :=
  match ch with
  | [] => a <= e
  | x :: r => a <= mstart x /\ mstart x < mstop x /\ chained (mstop x) r e
  end.

Lemma chained_le : forall ch a e, chained a ch e -> a <= e.
Proof. induction ch as [|x r IH]; intros a e H; [exact H|]. destruct H as (H1 & H2 & H3). apply IH in H3. lia. Qed.

Lemma chained_ge : forall ch a e, chained a ch e -> Forall (fun x => a <= mstart x) ch.
Proof.
  induction ch as [|x r IH]; intros a e H; constructor; destruct H as (H1 & H2 & H3); [exact H1|].
  eapply Forall_impl; [|exact (IH _ _ H3)]. cbn beta. lia.
Qed.

Lemma chained_sorted n : forall ch a e, chained a ch e -> StronglySorted (le ckey_leb) (map (ctrig_of n) ch).
Proof.
  induction ch as [|x r IH]; intros a e H; cbn [map]; constructor; destruct H as (H1 & H2 & H3); [exact (IH _ _ H3)|].
  apply Forall_map. eapply Forall_impl; [|exact (chained_ge _ _ _ H3)].
  intros y Hy. apply Nat.leb_le. cbn [ctrig_of fst] in *. lia.
Qed.

(* the certificate's walk steps over a certified child that starts at or after the position reached, under a new key *)
Lemma cwalk_child n e prev mx k st r :
  match prev with Some p => p < mx | None => True end -> mx <= k -> k <= st -> st <= e ->
  cwalk n e prev mx ((k, CChild st true) :: r) = cwalk n e (Some k) st r.
Proof.
  intros Hp H1 H2 H3. cbn [cwalk].
  replace (match prev with Some p => p =? k | None => false end) with false
    by (destruct prev; [symmetry; apply Nat.eqb_neq; lia|reflexivity]).
  destruct (Nat.ltb_spec k mx); [lia|]. destruct (Nat.ltb_spec e k); [lia|]. cbn [negb andb].
  replace (if mx <? k then k else mx) with k by (destruct (Nat.ltb_spec mx k); lia).
  rewrite Nat.eqb_refl. destruct (Nat.leb_spec k st); [|lia]. destruct (Nat.leb_spec st e); [|lia]. reflexivity.
Qed.

Lemma cwalk_chained n e : forall ch prev mx,
  match prev with Some p => p < mx | None => True end -> chained mx ch e -> Forall (fun x => wf_b n x = true) ch ->
  exists mx', cwalk n e prev mx (map (ctrig_of n) ch) = Some mx'.
Proof.
  induction ch as [|x r IH]; intros prev mx Hp Hc Hwf; cbn [map].
  - exists mx. reflexivity.
  - destruct Hc as (H1 & H2 & H3). inversion Hwf as [|? ? Hx Hr]. unfold ctrig_of at 1. rewrite Hx.
    pose proof (chained_le _ _ _ H3).
    rewrite cwalk_child by (assumption || lia). apply IH; assumption.
Qed.

Theorem wf_b_children n s e c ch :
  s < e -> e <= n -> chained s ch e -> Forall (fun x => wf_b n x = true) ch -> wf_b n (MR s e c [] ch) = true.
Proof.
  intros Hse Hen Hc Hwf. rewrite wf_b_pos by exact Hse. apply andb_true_iff. split; [apply Nat.leb_le; exact Hen|].
  unfold ctrigs. cbn [map app]. rewrite ssort_sorted_id by (eapply chained_sorted; exact Hc).
  destruct (cwalk_chained n e ch None s I Hc Hwf) as [mx E]. rewrite E. apply Nat.leb_le.
  eapply cwalk_bound; [exact E|lia].
Qed.

Lemma wf_b_stop n m : wf_b n m = true -> mstop m <= n.
Proof.
  destruct m as [s e c ins ch]. cbn [wf_b mstop]. intros H. apply Nat.leb_le.
  (* e <=? n is a conjunct of the test for either length *)
  destruct (e <=? n); [reflexivity|]. destruct (e - s =? 0); [rewrite andb_false_r in H|]; discriminate H.
Qed.

(* wrap with no extra inserts (how every BaseSegment.match and every classed grammar element wraps its content) *)
Theorem wrap_keeps_certificate n m outer m' :
  wf_b n m = true -> wrap m outer [] = Ok m' -> wf_b n m' = true.
Proof.
  destruct m as [s e c ins ch]. unfold wrap, mlen, mk. cbn [mstart mstop mins mcls mch is_nil].
  intros Hwf. destruct ((e - s =? 0) && is_nil ins); [intros [= <-]; exact Hwf|].
  destruct (Nat.eqb_spec (e - s) 0) as [Ez|Ez]; [destruct c, ch; discriminate|].
  assert (Hse : s < e) by lia. pose proof (wf_b_stop n _ Hwf) as Hen.
  destruct c as [k|]; cbn [andb]; intros [= <-].
  - apply wf_b_children; [exact Hse|exact Hen|cbn; lia|repeat constructor; exact Hwf].
  - rewrite app_nil_r. rewrite wf_b_pos in * by exact Hse. exact Hwf.
Qed.

(* append of two certified, classed, non-empty results that do not overlap (Sequence / AnyNumberOf / Delimited accumulate matched
   elements this way): the result holds them as its two children and is certified *)
Theorem append_classed_keeps_certificate n a b ka kb m' :
  wf_b n a = true -> wf_b n b = true -> mcls a = Some ka -> mcls b = Some kb ->
  0 < mlen a -> 0 < mlen b ->
  append a b [] = Ok m' -> wf_b n m' = true /\ mstart m' = mstart a /\ mstop m' = mstop b /\ mch m' = [a; b].
Proof.
  intros Ha Hb Ca Cb La Lb. unfold append, mk. rewrite Ca, Cb.
  rewrite (proj2 (Nat.eqb_neq (mlen a) 0)), (proj2 (Nat.eqb_neq (mlen b) 0)) by lia. cbn [andb fst snd app is_nil negb orb].
  destruct (Nat.leb_spec (mstop a) (mstart b)) as [Hab|]; [|discriminate]. unfold mlen in La, Lb.
  rewrite (proj2 (Nat.eqb_neq (mstop b - mstart a) 0)) by lia.
  intros [= <-]. cbn [mstart mstop mch]. repeat split.
  apply wf_b_children; [lia|apply wf_b_stop; exact Hb|cbn; lia|repeat constructor; assumption].
Qed.
