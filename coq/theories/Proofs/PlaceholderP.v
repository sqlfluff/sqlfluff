(* Lemmas about Model/Placeholder.v: what the placeholder loop renders and how its slices tile source and output. *)
From SF Require Import Base.Prelude Model.Placeholder.
From Coq Require Import Znat.

(* the finditer oracle: matches are sorted, non-overlapping, inside the string (empty matches allowed) *)
Fixpoint spans_ok (pos : nat) (ms : list pmatch) (n : nat) : Prop :=
  match ms with
  | [] => pos <= n
  | m :: r => pos <= pm_start m /\ pm_start m <= pm_stop m /\ spans_ok (pm_stop m) r n
  end.

(* the pieces of the source outside the matches: before the first, between consecutive ones, after the last *)
Fixpoint gaps (src : text) (pos : nat) (ms : list pmatch) : list text :=
  match ms with
  | [] => [pslice src pos (length src)]
  | m :: r => pslice src pos (pm_start m) :: gaps src (pm_stop m) r
  end.

(* g0 ++ x1 ++ g1 ++ ... ++ xn ++ gn *)
Fixpoint interleave (gs xs : list text) : text :=
  match gs, xs with
  | g :: gs', x :: xs' => g ++ x ++ interleave gs' xs'
  | g :: _, [] => g
  | [], _ => []
  end.

Definition matched (src : text) (ms : list pmatch) : list text :=
  map (fun m => pslice src (pm_start m) (pm_stop m)) ms.

Definition unnamed (m : pmatch) : bool := match pm_name m with None => true | Some _ => false end.
Definition count_unnamed (ms : list pmatch) : nat := length (filter unnamed ms).

(* the parameter name of every match, threading the counter *)
Fixpoint names (cnt : nat) (ms : list pmatch) : list text :=
  match ms with
  | [] => []
  | m :: r => fst (param_name cnt m) :: names (snd (param_name cnt m)) r
  end.

Fixpoint ztiles (l : list (Z * Z)) (from to : Z) : Prop :=
  match l with
  | [] => from = to
  | (a, b) :: r => a = from /\ (a <= b)%Z /\ ztiles r b to
  end.

Definition zslice (s : text) (p : Z * Z) : text := pslice s (Z.to_nat (fst p)) (Z.to_nat (snd p)).

(* raw slices: source_idx is the running sum of the lengths of the raws before it *)
Fixpoint idx_chain (pos : nat) (rs : list rslice) : Prop :=
  match rs with
  | [] => True
  | r :: rest => rs_idx r = pos /\ idx_chain (pos + length (rs_raw r)) rest
  end.

Lemma pslice_mid (pre mid post : text) :
  pslice (pre ++ mid ++ post) (length pre) (length (pre ++ mid)) = mid.
Proof.
  unfold pslice. rewrite skipn_length_app, app_length, Nat.add_comm, Nat.add_sub. apply firstn_length_app.
Qed.

Lemma pslice_end src a b : a <= b -> b <= length src -> a + length (pslice src a b) = b.
Proof. intros H1 H2. unfold pslice. rewrite slice_length, Nat.add_comm by exact H2. apply Nat.sub_add, H1. Qed.

Lemma zslice_nat s a b : zslice s (Z.of_nat a, Z.of_nat b) = pslice s a b.
Proof. unfold zslice. cbn [fst snd]. rewrite !Nat2Z.id. reflexivity. Qed.

Lemma ztiles_cons_nat a b r to : a <= b -> ztiles r (Z.of_nat b) to -> ztiles ((Z.of_nat a, Z.of_nat b) :: r) (Z.of_nat a) to.
Proof. intros H T. split; [reflexivity|]. split; [apply Nat2Z.inj_le, H|exact T]. Qed.

Lemma spans_ok_le : forall ms pos n, spans_ok pos ms n -> pos <= n.
Proof.
  induction ms as [|m r IH]; intros pos n H; cbn [spans_ok] in H; [exact H|].
  destruct H as [H1 [H2 H3]]. apply (Nat.le_trans _ _ _ H1), (Nat.le_trans _ _ _ H2), IH, H3.
Qed.

Lemma src_gen : forall ms src pos, spans_ok pos ms (length src) ->
  skipn pos src = interleave (gaps src pos ms) (matched src ms).
Proof.
  induction ms as [|m r IH]; intros src pos H; cbn [spans_ok gaps matched map interleave] in *.
  - symmetry. apply slice_to_end.
  - destruct H as [H1 [H2 H3]].
    rewrite (skipn_slice src pos (pm_start m) H1), (skipn_slice src (pm_start m) (pm_stop m) H2), (IH src (pm_stop m) H3).
    reflexivity.
Qed.

Lemma names_gen : forall ms cnt i m, nth_error ms i = Some m ->
  nth_error (names cnt ms) i =
    Some (match pm_name m with Some n => n | None => dec (cnt + count_unnamed (firstn i ms)) end).
Proof.
  induction ms as [|m0 r IH]; intros cnt i m H; [destruct i; discriminate|].
  destruct i as [|i]; cbn [nth_error names firstn] in *.
  - inversion H. unfold param_name, count_unnamed. destruct (pm_name m); cbn [fst filter length]; [reflexivity|].
    rewrite Nat.add_0_r. reflexivity.
  - rewrite (IH _ i m H). unfold count_unnamed. cbn [filter]. unfold param_name, unnamed at 2.
    destruct (pm_name m0); cbn [snd length]; [reflexivity|]. rewrite Nat.add_succ_comm. reflexivity.
Qed.

(* last_pos_templated + last_literal_length, which the loop computes in Z, is the length of the output so far plus the literal *)
Lemma lit_offset src pre a b : a <= b -> b <= length src ->
  (Z.of_nat (length pre) + (Z.of_nat b - Z.of_nat a))%Z = Z.of_nat (length (pre ++ pslice src a b)).
Proof.
  intros H1 H2. rewrite app_length, Nat2Z.inj_add. unfold pslice. rewrite slice_length, Nat2Z.inj_sub by assumption. reflexivity.
Qed.

(* What the loop returns when it runs from source position pos with pre already written; C09_placeholder_slices_tile, apart from
   what it says of the raw texts and the kinds, is tiled src 0 [].  Templated offsets are lengths of prefixes of the whole
   output pre ++ out. *)
Definition tiled (src : text) (pos : nat) (pre : text) (R : text * list tslice * list rslice) : Prop :=
  ztiles (map ts_src (snd (fst R))) (Z.of_nat pos) (Z.of_nat (length src))
  /\ ztiles (map ts_tpl (snd (fst R))) (Z.of_nat (length pre)) (Z.of_nat (length (pre ++ fst (fst R))))
  /\ Forall (fun t => ts_templated t = false -> zslice src (ts_src t) = zslice (pre ++ fst (fst R)) (ts_tpl t)) (snd (fst R))
  /\ idx_chain pos (snd R).

Lemma tiled_nil src pre : tiled src (length src) pre ([], [], []).
Proof. unfold tiled. cbn [fst snd map ztiles idx_chain]. rewrite app_nil_r. repeat split. constructor. Qed.

(* one more piece in front: source [a, b) rendered as x, which is that source text if the piece is a literal *)
Lemma tiled_piece k src a b pre x out ts rs : a <= b -> b <= length src -> (k = false -> x = pslice src a b) ->
  tiled src b (pre ++ x) (out, ts, rs) ->
  tiled src a pre (x ++ out, mkTs k (Z.of_nat a, Z.of_nat b) (Z.of_nat (length pre), Z.of_nat (length (pre ++ x))) :: ts,
                   mkRs (pslice src a b) k a :: rs).
Proof.
  unfold tiled. cbn [fst snd map ts_src ts_tpl]. rewrite <- app_assoc. intros H1 H2 Hx [T1 [T2 [T3 T4]]].
  split; [apply ztiles_cons_nat; assumption|]. split; [apply ztiles_cons_nat; [rewrite app_length; apply Nat.le_add_r|exact T2]|].
  split.
  - constructor; [|exact T3]. cbn [ts_templated ts_src ts_tpl]. intros Hk. rewrite !zslice_nat, (Hx Hk). symmetry. apply pslice_mid.
  - cbn [idx_chain rs_idx rs_raw]. rewrite pslice_end by assumption. split; [reflexivity|exact T4].
Qed.

Section Spec.
  Variable ctx : text -> option text.

  Fixpoint repls (cnt : nat) (ms : list pmatch) : list text :=
    match ms with
    | [] => []
    | m :: r => replacement ctx (fst (param_name cnt m)) m :: repls (snd (param_name cnt m)) r
    end.

  Lemma repls_names : forall ms cnt, repls cnt ms = map (fun p => replacement ctx (fst p) (snd p)) (combine (names cnt ms) ms).
  Proof. induction ms as [|m r IH]; intros cnt; cbn [repls names combine map fst snd]; [reflexivity|]. rewrite IH. reflexivity. Qed.

  (* the output and the raw slices of the loop; no hypothesis on the matches is needed, and with src_gen the raw slices
     concatenate to the source *)
  Lemma ph_loop_gen : forall ms src pos tpl cnt, let R := ph_loop ctx src pos tpl cnt ms in
    fst (fst R) = interleave (gaps src pos ms) (repls cnt ms)
    /\ concat (map rs_raw (snd R)) = interleave (gaps src pos ms) (matched src ms)
    /\ map rs_templated (snd R) = map ts_templated (snd (fst R)).
  Proof.
    induction ms as [|m r IH]; intros src pos tpl cnt; cbn [ph_loop gaps repls matched map interleave].
    - destruct (pos <? length src) eqn:El; cbn [fst snd map concat rs_raw]; [rewrite app_nil_r; repeat split; reflexivity|].
      apply Nat.ltb_ge in El. unfold pslice. rewrite slice_nil by exact El. repeat split; reflexivity.
    - destruct (param_name cnt m) as [nm c']. cbn [fst snd].
      destruct (IH src (pm_stop m)
        (tpl + (Z.of_nat (pm_start m) - Z.of_nat pos) + Z.of_nat (length (replacement ctx nm m)))%Z c') as [I0 [I1 I2]].
      destruct (ph_loop ctx src (pm_stop m) _ c' r) as [[out' ts'] rs'].
      cbn [fst snd map concat rs_raw rs_templated ts_templated] in *. rewrite I0, I1, I2. repeat split; reflexivity.
  Qed.

  Lemma ph_loop_tiles : forall ms src pos cnt pre, spans_ok pos ms (length src) ->
    tiled src pos pre (ph_loop ctx src pos (Z.of_nat (length pre)) cnt ms).
  Proof.
    induction ms as [|m r IH]; intros src pos cnt pre Hs; cbn [spans_ok ph_loop] in *.
    - destruct (pos <? length src) eqn:El.
      + (* the last literal: a piece with nothing after it *)
        rewrite (lit_offset src) by auto.
        pose proof (tiled_piece false src pos (length src) pre _ [] [] [] Hs (Nat.le_refl _) (fun _ => eq_refl) (tiled_nil src _)) as T.
        rewrite app_nil_r in T. exact T.
      + apply Nat.ltb_ge in El. rewrite (Nat.le_antisymm _ _ Hs El). apply tiled_nil.
    - destruct Hs as [H1 [H2 H3]]. pose proof (spans_ok_le _ _ _ H3) as H4. pose proof (Nat.le_trans _ _ _ H2 H4) as H5.
      destruct (param_name cnt m) as [nm c']. rewrite (lit_offset src), <- Nat2Z.inj_add, <- app_length by assumption.
      destruct (ph_loop ctx src (pm_stop m) _ c' r) as [[out' ts'] rs'] eqn:Er.
      apply (tiled_piece false), (tiled_piece true); auto; [discriminate|]. rewrite <- Er. apply IH, H3.
  Qed.
End Spec.
