(* The lexer loops keep `inv` (the element lengths so far are positive and sum to the position reached), every round consumes at
   least one character, and so fuel S n is never used up. *)
From SF Require Import Base.Prelude Model.Lexer.
From Coq Require Import Lia.

Lemma first_match_in ms els : first_match ms = Some els -> In els ms /\ els <> [].
Proof.
  induction ms as [|m r IH]; cbn [first_match]; [discriminate|]. destruct m as [|x m'].
  - intros H. destruct (IH H). split; [right; assumption|assumption].
  - intros H. inversion H. split; [left; reflexivity|discriminate].
Qed.

Lemma sum_pos els : els <> [] -> Forall (fun l => 0 < l) els -> 0 < sum_nat els.
Proof. destruct els as [|x r]; [congruence|]. intros _ H. inversion H. cbn [sum_nat]. lia. Qed.

Section LexP.
  Variables (n : nat) (mt : nat -> list (list nat)) (lastm : nat -> list nat).

  (* oracle well-formedness: elements are non-empty and stay inside the text *)
  Definition els_ok (p : nat) (els : list nat) : Prop := Forall (fun l => 0 < l) els /\ p + sum_nat els <= n.
  Hypothesis mt_ok : forall p els, p < n -> In els (mt p) -> els_ok p els.
  Hypothesis last_ok : forall p, p < n -> els_ok p (lastm p).

  Definition inv (p : nat) (acc : list nat) : Prop := Forall (fun l => 0 < l) acc /\ sum_nat acc = p /\ p <= n.

  Lemma inv_step p acc els : inv p acc -> els_ok p els -> inv (p + sum_nat els) (acc ++ els).
  Proof.
    intros (Ha & Hs & Hp) (He & Hb). split; [apply Forall_app; split; assumption|]. rewrite sum_nat_app. split; [lia|exact Hb].
  Qed.

  (* with fuel for one character per round lex_match returns, at the end of the text or where no table matcher matches *)
  Lemma lex_match_spec fuel : forall p acc, inv p acc -> n - p < fuel ->
    exists p' acc', lex_match n mt fuel p acc = Ok (p', acc') /\ inv p' acc' /\ p <= p' /\ (p' < n -> first_match (mt p') = None).
  Proof.
    induction fuel as [|f IH]; intros p acc Hi Hf; [lia|]. cbn [lex_match].
    destruct (Nat.leb_spec n p) as [En|En]; [exists p, acc; split; [reflexivity|]; split; [exact Hi|]; split; lia|].
    destruct (first_match (mt p)) as [els|] eqn:Ef; [|exists p, acc; split; [reflexivity|]; split; [exact Hi|]; split; [lia|intros _; exact Ef]].
    destruct (first_match_in _ _ Ef) as [Hin Hne]. pose proof (mt_ok p els En Hin) as Hok.
    pose proof (sum_pos els Hne (proj1 Hok)).
    destruct (IH (p + sum_nat els) (acc ++ els)) as (p' & acc' & E & Hi' & Hle & Hn); [apply inv_step; assumption|lia|].
    exists p', acc'. split; [exact E|]. split; [exact Hi'|]. split; [lia|exact Hn].
  Qed.

  Theorem lex_inv fuel : forall p acc els,
    inv p acc -> lex n mt lastm fuel p acc = Ok els -> Forall (fun l => 0 < l) els /\ sum_nat els = n.
  Proof.
    induction fuel as [|f IH]; intros p acc els Hi H; cbn [lex] in H; [discriminate|].
    destruct (lex_match_spec (S n) p acc Hi) as (p1 & acc1 & E & Hi1 & _ & _); [lia|]. rewrite E in H.
    destruct (Nat.ltb_spec p1 n) as [El|El].
    - pose proof (inv_step _ _ _ Hi1 (last_ok p1 El)). destruct (lastm p1); [discriminate|]. eapply IH; eassumption.
    - inversion H; subst. destruct Hi1 as (Ha & Hs & Hp). split; [exact Ha|lia].
  Qed.

  (* totality: if wherever the table matchers give up the last resort yields something, lex never panics and never runs out of
     fuel with fuel = S n *)
  Hypothesis last_total : forall p, p < n -> first_match (mt p) = None -> lastm p <> [].

  Theorem lex_total fuel : forall p acc, inv p acc -> n - p < fuel -> exists els, lex n mt lastm fuel p acc = Ok els.
  Proof.
    induction fuel as [|f IH]; intros p acc Hi Hf; [lia|]. cbn [lex].
    destruct (lex_match_spec (S n) p acc Hi) as (p1 & acc1 & -> & Hi1 & Hle & Hnone); [lia|].
    destruct (Nat.ltb_spec p1 n) as [El|El]; [|eauto].
    pose proof (last_total p1 El (Hnone El)) as Hl. pose proof (last_ok p1 El) as Hok.
    pose proof (sum_pos _ Hl (proj1 Hok)). pose proof (inv_step _ _ _ Hi1 Hok).
    destruct (lastm p1); [congruence|]. apply IH; [assumption|lia].
  Qed.
End LexP.

Lemma inv_start n : inv n 0 [].
Proof. split; [constructor|]. split; [reflexivity|apply Nat.le_0_l]. Qed.

Lemma slices_tile els : forall idx, Forall (fun l => 0 < l) els -> tiles idx (idx + sum_nat els) (slices idx els).
Proof.
  induction els as [|l r IH]; intros idx H; cbn [slices tiles sum_nat]; [lia|].
  inversion H. split; [reflexivity|]. split; [lia|]. rewrite Nat.add_assoc. apply IH; assumption.
Qed.
