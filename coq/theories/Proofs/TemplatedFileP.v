(* What TemplatedFile's constructor checks imply (both slice lists tile their text) and what the Jinja tracer's bookkeeping keeps. *)
From SF Require Import Base.Prelude Model.TemplatedFile.

Lemma raw_check_tiles rs : forall pos p, raw_check pos rs = Some p -> raw_tiles pos p rs.
Proof.
  induction rs as [|[idx len] r IH]; intros pos p H; cbn [raw_check raw_tiles] in *.
  - inversion H; reflexivity.
  - destruct (Nat.eqb_spec idx pos) as [E|]; [|discriminate]. split; [exact E|apply IH; exact H].
Qed.

(* once a slice has been seen the check returns the end of the last one *)
Lemma tpl_check_tiles fs : forall pos r, tpl_check (Some pos) fs = Some r -> exists last, r = Some last /\ tpl_tiles pos last fs.
Proof.
  induction fs as [|[ss [ts te]] rest IH]; intros pos r H; cbn [tpl_check tpl_tiles] in *.
  - inversion H. eauto.
  - destruct (Nat.eqb_spec ts pos) as [E|]; [|discriminate]. destruct (IH _ _ H) as [last [-> Ht]]. eauto.
Qed.

(* fs <> []: on an empty sliced_file the constructor's loop leaves previous_slice at None and the length test is skipped
   (tpl_check None [] = Some None), so an empty slice list is accepted for any templated length *)
Theorem ctor_enforces_tiling nsrc ntpl rs fs :
  ctor_check nsrc ntpl rs fs = Ok tt ->
  raw_tiles 0 nsrc rs /\ (fs <> [] -> tpl_tiles 0 ntpl fs).
Proof.
  unfold ctor_check. intros H.
  destruct (raw_check 0 rs) as [p|] eqn:Er; [|discriminate].
  destruct (Nat.eqb_spec p nsrc) as [->|]; [|discriminate].
  split; [apply raw_check_tiles; exact Er|]. intros Hne.
  destruct fs as [|[ss [ts te]] r]; [congruence|]. cbn [tpl_check] in H. cbn [tpl_tiles].
  destruct (Nat.eqb_spec ts 0) as [E0|]; [|discriminate]. split; [exact E0|].
  destruct (tpl_check (Some te) r) as [o|] eqn:Et; [|discriminate].
  destruct (tpl_check_tiles _ _ _ Et) as [last [-> Ht]].
  destruct (Nat.eqb_spec last ntpl) as [<-|]; [exact Ht|discriminate].
Qed.

Lemma tpl_tiles_app a b c l1 l2 : tpl_tiles a b l1 -> tpl_tiles b c l2 -> tpl_tiles a c (l1 ++ l2).
Proof.
  revert a. induction l1 as [|[ss [ts te]] r IH]; intros a H1 H2; cbn [app tpl_tiles] in *.
  - subst. exact H2.
  - destruct H1 as [E H1]. split; [exact E|apply IH; assumption].
Qed.

(* tracer: after any sequence of record_trace calls the recorded templated slices tile [0, cur) in order *)
Theorem tracer_templated_tiles starts nsrc calls :
  let st := run_trace starts nsrc calls in tpl_tiles 0 (fst st) (snd st).
Proof.
  apply (fold_left_ind (fun st => tpl_tiles 0 (fst st) (snd st))); [reflexivity|].
  intros [cur acc] [len idx] _ H. apply (tpl_tiles_app 0 cur (cur + len)); [exact H|]. split; reflexivity.
Qed.

(* the source slice record_trace gives a call for raw slice idx: [starts[idx], starts[idx+1]), up to nsrc for the last one *)
Definition src_slice_of (starts : list nat) (nsrc idx : nat) : nat * nat :=
  (nth idx starts 0, if S idx <? length starts then nth (S idx) starts 0 else nsrc).
