From SF Require Import Base.Prelude Base.Sort Model.Gate Model.Runner.

(* The aggregate collects one contribution per outcome: two counters, which add up, and two lists keyed by the path, which are
   sorted by it.  A permutation of the outcomes permutes the contributions, and neither a sum nor a sort on distinct keys
   sees that. *)
Definition viol1 (o : outcome) : nat := match o with OLinted _ v _ => num_viol v | _ => 0 end.
Definition skipped1 (o : outcome) : nat := match o with OSkipped _ => 1 | _ => 0 end.
Definition record1 (o : outcome) : list (nat * file) :=
  match o with OLinted p v _ => [(p, filter (fun x => negb (v_ign x)) v)] | _ => [] end.
Definition write1 (o : outcome) : list (nat * text) :=
  match o with OLinted p _ (Some t) => [(p, t)] | _ => [] end.

Lemma viols_of_sum l : viols_of l = list_sum (map viol1 l).
Proof. induction l as [|o l IH]; [reflexivity|]. destruct o; cbn [viols_of]; rewrite IH; reflexivity. Qed.
Lemma skipped_of_sum l : skipped_of l = list_sum (map skipped1 l).
Proof. induction l as [|o l IH]; [reflexivity|]. destruct o; cbn [skipped_of]; rewrite IH; reflexivity. Qed.
Lemma records_of_flat l : records_of l = flat_map record1 l.
Proof. induction l as [|o l IH]; [reflexivity|]. cbn [flat_map]. rewrite <- IH. destruct o; reflexivity. Qed.
Lemma writes_of_flat l : writes_of l = flat_map write1 l.
Proof. induction l as [|o l IH]; [reflexivity|]. cbn [flat_map]. rewrite <- IH. destruct o as [? ? []| |]; reflexivity. Qed.

(* at most one entry per outcome, under the outcome's path: distinct paths give distinct keys *)
Lemma keyed_nodup {B} (g : outcome -> list (nat * B)) l :
  (forall o, map fst (g o) = [o_path o] \/ g o = []) ->
  NoDup (map o_path l) -> NoDup (map fst (flat_map g l)).
Proof.
  intros Hg. rewrite map_flat_map. induction l as [|o l IH]; cbn [map flat_map]; intros H; [constructor|].
  inversion H as [|? ? Hn Hr]; subst.
  destruct (Hg o) as [-> | ->]; [|apply IH; exact Hr]. constructor; [|apply IH; exact Hr].
  (* a key of the rest is the path of an outcome of the rest *)
  intros Hin. apply Hn. apply in_flat_map in Hin as [o' [Ho' Hin]].
  destruct (Hg o') as [E | E]; rewrite E in Hin; [destruct Hin as [<-|[]]; apply in_map, Ho'|destruct Hin].
Qed.

Theorem aggregate_perm l l' :
  Permutation l l' -> NoDup (map o_path l) -> aggregate l = aggregate l'.
Proof.
  intros Hp Hn. unfold aggregate.
  rewrite !viols_of_sum, !skipped_of_sum, !records_of_flat, !writes_of_flat. f_equal.
  - apply Permutation_list_sum, Permutation_map, Hp.
  - apply Permutation_list_sum, Permutation_map, Hp.
  - apply (by_key_perm_eq fst); [|rewrite Hp; reflexivity].
    apply keyed_nodup; [|exact Hn]. intros [| |]; cbn; auto.
  - apply (by_key_perm_eq fst); [|rewrite Hp; reflexivity].
    apply keyed_nodup; [|exact Hn]. intros [? ? []| |]; cbn; auto.
Qed.

Example aggregate_example :
  let a := OLinted 2 [mkVS KLint true false false] (Some [65]%N) in
  let b := OSkipped 1 in let c := OLinted 0 [] None in
  aggregate [a; b; c] = aggregate [c; a; b] /\ a_skipped (aggregate [a; b; c]) = 1 /\ NoDup (map o_path [a; b; c]).
Proof. split; [vm_compute; reflexivity|split; [reflexivity|]]. repeat constructor; cbn; intuition discriminate. Qed.
