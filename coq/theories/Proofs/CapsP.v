(* Lemmas about Model/Caps.v (C15: capitalisation fixes change only letter case).  Each case-only policy leaves the lower-casing
   of a raw alone, every policy its lower-casing without underscores; a fix uses only the policies may_use allows; hence a
   crawl, and any number of passes, leaves the kinds and those normal forms of all tokens alone (Section NormalForm). *)
From SF Require Import Base.Prelude Model.Caps.
From Coq Require Import Lia.

Lemma range_spec (a b c : N) : BoolSpec (a <= c <= b)%N (~ (a <= c <= b)%N) ((a <=? c) && (c <=? b))%N.
Proof. destruct (N.leb_spec a c), (N.leb_spec c b); constructor; lia. Qed.

Lemma lo_up c : lo (up c) = lo c.
Proof.
  unfold lo, up, is_upper, is_lower. destruct (range_spec 97 122 c); [|reflexivity].
  destruct (range_spec 65 90 (c - 32)), (range_spec 65 90 c); lia.
Qed.

Lemma lo_lo c : lo (lo c) = lo c.
Proof.
  unfold lo, is_upper. destruct (range_spec 65 90 c) as [H|H].
  - destruct (range_spec 65 90 (c + 32)); lia.
  - destruct (range_spec 65 90 c); [contradiction|reflexivity].
Qed.

Lemma lo_95 c : N.eqb (lo c) 95 = N.eqb c 95.
Proof.
  unfold lo, is_upper. destruct (range_spec 65 90 c); [|reflexivity].
  destruct (N.eqb_spec (c + 32) 95), (N.eqb_spec c 95); reflexivity || lia.
Qed.

(* The property of a transform: same length, same text up to ASCII letter case.  The second half implies the first
   (lower_length), so the lemmas below speak of lower only. *)
Definition case_only (f : text -> text) : Prop := forall s, length (f s) = length s /\ lower (f s) = lower s.

Lemma lower_length a b : lower b = lower a -> length b = length a.
Proof. intros H. apply (f_equal (@length _)) in H. unfold lower in H. rewrite !map_length in H. exact H. Qed.

Lemma lower_map (g : cp -> cp) s : (forall c, lo (g c) = lo c) -> lower (map g s) = lower s.
Proof. intros H. unfold lower. rewrite map_map. apply map_ext, H. Qed.

Lemma lower_runs_first f : (forall c, lo (f c) = lo c) -> forall s prev, lower (runs_first f prev s) = lower s.
Proof.
  intros Hf. induction s as [|c r IH]; intros prev; cbn [runs_first]; [reflexivity|].
  unfold lower in *. cbn [map]. rewrite IH. f_equal. destruct (is_alnum c && negb prev); [apply Hf | reflexivity].
Qed.

Lemma lower_apply_policy p s : case_only_policy p = true -> lower (apply_policy p s) = lower s.
Proof.
  destruct p; cbn [case_only_policy apply_policy]; intros H; try discriminate.
  - apply lower_map, lo_up.
  - apply lower_map, lo_lo.
  - destruct s as [|c r]; [reflexivity|]. unfold capitalise, lower at 1 3. cbn [map]. rewrite lo_up. f_equal. apply lower_map, lo_lo.
  - apply lower_runs_first, lo_up.
  - apply lower_runs_first, lo_lo.
Qed.

Lemma apply_policy_case_only p : case_only_policy p = true -> case_only (apply_policy p).
Proof. intros Hp s. split; [apply lower_length|]; apply lower_apply_policy, Hp. Qed.

(* snake is not case-only: aB -> a_b, a1 -> a_1 *)
Lemma snake_not_case_only : ~ case_only snake.
Proof. intros H. destruct (H [97; 66]%N) as [Hl _]. vm_compute in Hl. discriminate. Qed.

Lemma snake_witness : snake [97; 66]%N = [97; 95; 98]%N /\ snake [99; 111; 108; 49]%N = [99; 111; 108; 95; 49]%N.
Proof. split; vm_compute; reflexivity. Qed.

(* what snake does do: it changes letter case and inserts underscores, nothing else *)
Lemma drop_us_lower s : drop_us (lower s) = lower (drop_us s).
Proof.
  induction s as [|c r IH]; [reflexivity|]. unfold drop_us, lower in *. cbn [map filter].
  rewrite lo_95. destruct (N.eqb c 95); cbn [negb map]; rewrite IH; reflexivity.
Qed.

Lemma drop_us_snake_ins s : forall prev, drop_us (snake_ins prev s) = drop_us s.
Proof.
  induction s as [|c r IH]; intros prev; cbn [snake_ins]; [reflexivity|].
  unfold drop_us in *. rewrite filter_app, IH.
  destruct (match prev with Some p => snake_gap p c | None => false end); cbn [filter];
    [change (N.eqb 95 95) with true; cbn [negb]|]; destruct (negb (N.eqb c 95)); reflexivity.
Qed.

Lemma us_snake s : drop_us (lower (snake s)) = drop_us (lower s).
Proof.
  unfold snake. destruct (str_isupper s); rewrite (lower_map lo _ lo_lo); [reflexivity|].
  rewrite !drop_us_lower, drop_us_snake_ins. reflexivity.
Qed.

Lemma us_apply_policy p s : drop_us (lower (apply_policy p s)) = drop_us (lower s).
Proof. destruct p; try (rewrite lower_apply_policy; reflexivity). apply us_snake. Qed.

Lemma refute_extended raw r p : basic_policy p = false -> pmem p (refute raw r) = true.
Proof.
  intros Hp. unfold refute.
  destruct (first_letter_is_lowercase raw);
    [ destruct (negb (text_eqb raw (lower raw)))
    | destruct (negb (text_eqb raw (upper raw))); destruct (negb (text_eqb raw (capitalise raw))) ];
    destruct p; try discriminate Hp; reflexivity.
Qed.

Lemma refute_mono raw r p : pmem p r = true -> pmem p (refute raw r) = true.
Proof.
  intros Hp. unfold refute, pmem in *.
  destruct (first_letter_is_lowercase raw);
    [ destruct (negb (text_eqb raw (lower raw)))
    | destruct (negb (text_eqb raw (upper raw))); destruct (negb (text_eqb raw (capitalise raw))) ];
    cbn [app existsb]; rewrite Hp; rewrite ?orb_true_r; reflexivity.
Qed.

Definition mem_ok (m : memory) : Prop := match latest m with Some p => basic_policy p = true | None => True end.

(* the concrete policies a fix under cap can be computed with *)
Definition may_use (cap : cap_policy) (p : policy) : Prop :=
  match cap with Consistent => basic_policy p = true | Explicit q => p = q end.

Definition fix_ok (cap : cap_policy) (raw : text) (fx : option (policy * text)) : Prop :=
  match fx with
  | None => True
  | Some (p, fixed) => fixed = apply_policy p raw /\ may_use cap p
  end.

Lemma handle_segment_spec cap opts skip m raw :
  mem_ok m ->
  mem_ok (fst (handle_segment cap opts skip m raw)) /\ fix_ok cap raw (snd (handle_segment cap opts skip m raw)).
Proof.
  intros Hm. unfold handle_segment.
  destruct (skip raw); [split; [exact Hm | exact I]|].
  destruct raw as [|c0 raw0]; [split; [exact Hm | exact I]|].
  set (raw := c0 :: raw0). set (rc := refute raw (refuted m)).
  assert (Hdecide : forall m' p, mem_ok m' -> may_use cap p ->
            let r := (if text_eqb (apply_policy p raw) raw then (m', None) else (m', Some (p, apply_policy p raw))) in
            mem_ok (fst r) /\ fix_ok cap raw (snd r)).
  { intros m' p Hm' Hp. cbv zeta. destruct (text_eqb (apply_policy p raw) raw); cbn [fst snd fix_ok]; split; try exact Hm'.
    - exact I.
    - split; [reflexivity | exact Hp]. }
  destruct cap as [|q].
  - destruct (filter (fun c => negb (pmem c rc)) opts) as [|c l] eqn:E.
    + apply Hdecide; [exact Hm|]. unfold mem_ok in Hm. destruct (latest m); [exact Hm | reflexivity].
    + cbn [fst snd]. split; [|exact I]. unfold mem_ok. cbn [latest].
      assert (Hin : In c (filter (fun c => negb (pmem c rc)) opts)) by (rewrite E; left; reflexivity).
      apply filter_In in Hin as [_ Hn]. destruct (basic_policy c) eqn:B; [reflexivity|].
      unfold rc in Hn. rewrite (refute_extended raw (refuted m) c B) in Hn. discriminate.
  - destruct (negb (pmem q rc)); [split; [exact Hm | exact I]|].
    apply Hdecide; [exact Hm | reflexivity].
Qed.

Lemma explicit_policy_choice q opts skip m raw m' p fixed :
  handle_segment (Explicit q) opts skip m raw = (m', Some (p, fixed)) -> p = q /\ fixed = apply_policy q raw.
Proof.
  unfold handle_segment. destruct (skip raw); [discriminate|]. destruct raw as [|c0 raw0]; [discriminate|].
  destruct (negb (pmem q _)); [discriminate|].
  destruct (text_eqb _ _); [discriminate|]. intros H. inversion H. split; reflexivity.
Qed.

(* The crawl and the fix loop.  "Changes nothing but X" is said with a normal form nf that forgets X (lower-casing; lower-casing
   and dropping underscores): if no policy a fix can use changes the normal form of a raw, no number of passes changes the
   kinds and normal forms of the tokens. *)
Section NormalForm.
  Context {A : Type} (nf : text -> A) (cap : cap_policy).
  Hypothesis nf_fix : forall p s, may_use cap p -> nf (apply_policy p s) = nf s.
  Variable opts : list policy.
  Variable skip : text -> bool.
  Variable target : nat -> token -> bool.

  Definition tok_nf (t : token) : nat * A := (t_kind t, nf (t_raw t)).

  Lemma crawl_nf toks : forall i m, mem_ok m -> map tok_nf (crawl cap opts skip target i m toks) = map tok_nf toks.
  Proof.
    induction toks as [|t r IH]; intros i m Hm; cbn [crawl map]; [reflexivity|].
    destruct (target i t); [|cbn [map]; rewrite IH by exact Hm; reflexivity].
    destruct (handle_segment_spec cap opts skip m (t_raw t) Hm) as [Hm' Hfx].
    destruct (handle_segment cap opts skip m (t_raw t)) as [m' [[p raw']|]]; cbn [fst snd fix_ok map] in *;
      rewrite IH by exact Hm'; [|reflexivity].
    destruct Hfx as [-> Hp]. unfold tok_nf. cbn [t_kind t_raw]. rewrite nf_fix by exact Hp. reflexivity.
  Qed.

  Lemma fix_loop_nf loops : forall toks, map tok_nf (fix_loop cap opts skip target loops toks) = map tok_nf toks.
  Proof. induction loops as [|k IH]; intros toks; cbn [fix_loop]; [reflexivity|]. rewrite IH. apply crawl_nf. exact I. Qed.
End NormalForm.

(* the single-replace frame of one crawl: same number of tokens, same kinds, untargeted and skipped tokens untouched *)
Lemma crawl_kinds cap opts skip target toks : forall i m,
  map t_kind (crawl cap opts skip target i m toks) = map t_kind toks.
Proof.
  induction toks as [|t r IH]; intros i m; cbn [crawl]; [reflexivity|].
  destruct (target i t); [destruct (handle_segment cap opts skip m (t_raw t)) as [m' [[p raw']|]]|]; cbn [map]; rewrite IH; reflexivity.
Qed.

Lemma crawl_untouched cap opts skip target toks : forall i m j t,
  nth_error toks j = Some t -> (target (i + j) t = false \/ skip (t_raw t) = true) ->
  nth_error (crawl cap opts skip target i m toks) j = Some t.
Proof.
  induction toks as [|t r IH]; intros i m [|j] t' Hn Htg; try discriminate Hn; cbn [crawl nth_error] in *.
  - inversion Hn; subst t'. rewrite Nat.add_0_r in Htg. destruct (target i t); [|reflexivity].
    destruct Htg as [Htg|Htg]; [discriminate Htg|]. unfold handle_segment. rewrite Htg. reflexivity.
  - rewrite <- Nat.add_succ_comm in Htg.
    destruct (target i t); [destruct (handle_segment cap opts skip m (t_raw t)) as [m' fx]|]; apply IH; assumption.
Qed.

Lemma fix_loop_frame cap opts skip target loops : forall toks j t,
  nth_error toks j = Some t -> target j t = false -> nth_error (fix_loop cap opts skip target loops toks) j = Some t.
Proof.
  induction loops as [|k IH]; intros toks j t Hn Ht; cbn [fix_loop]; [exact Hn|]. apply IH; [|exact Ht].
  apply (crawl_untouched cap opts skip target toks 0); auto.
Qed.
