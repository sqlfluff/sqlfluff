(* The decision layer of Model/Gate.v: one write gate behind the three entry points (C18, C19), and the exit codes
   read as "some violation of such a kind exists" (C22). *)
From SF Require Import Base.Prelude Model.Gate.

(* The counters are only ever compared with 0, and "the count is positive" is "there is one": rewriting with [pos] turns
   an exit code or a gate into a boolean built from existsb over the violations. *)
Lemma count_pos p f : (0 <? count p f) = existsb p f.
Proof.
  unfold count. induction f as [|v f IH]; cbn [filter existsb]; [reflexivity|].
  destruct (p v); [reflexivity|exact IH].
Qed.

Lemma pos_add a b : (0 <? a + b) = (0 <? a) || (0 <? b).
Proof. destruct a, b; reflexivity. Qed.

Lemma sumf_pos g fs : (0 <? sumf g fs) = existsb (fun f => 0 <? g f) fs.
Proof. induction fs as [|f fs IH]; cbn [sumf existsb]; [reflexivity|]. rewrite pos_add, IH. reflexivity. Qed.

Lemma pos_if (c : bool) n : (0 <? (if c then n else 0)) = c && (0 <? n).
Proof. destruct c; reflexivity. Qed.

Lemma pos_unless (c : bool) n : (0 <? (if c then 0 else n)) = negb c && (0 <? n).
Proof. destruct c; reflexivity. Qed.

Lemma b2e_unless (c b : bool) : (if c then 0 else b2e b) = b2e (negb c && b).
Proof. destruct c; reflexivity. Qed.

Lemma zero_pos n : (n =? 0) = negb (0 <? n).
Proof. destruct n; reflexivity. Qed.

Lemma b2e_max a b : Nat.max (b2e a) (b2e b) = b2e (a || b).
Proof. destruct a, b; reflexivity. Qed.

#[export] Hint Rewrite count_pos pos_add sumf_pos pos_if pos_unless b2e_unless zero_pos b2e_max : pos.

(* One gate for all three entry points: api_should_fix is the gate itself, stdin applies its negation
   (fixes_discarded), the path runner has it as the first factor of paths_written. *)
Theorem gate_spec f feu :
  api_should_fix f feu = true <-> feu = true \/ (forall v, In v f -> is_tp v = false).
Proof.
  unfold api_should_fix, unfiltered_tp. autorewrite with pos.
  rewrite orb_true_iff, negb_true_iff, existsb_false. reflexivity.
Qed.

Theorem gate_agreement f feu : api_should_fix f feu = negb (fixes_discarded f feu).
Proof.
  unfold api_should_fix, fixes_discarded. autorewrite with pos.
  destruct feu, (existsb is_tp f); reflexivity.
Qed.

(* what makes one file fail a fix run: as the counters of LintedDir see it = as spec_fix_fail says it *)
Lemma file_fail_eq f feu :
  (negb feu && (0 <? filtered_tp f)) || ((0 <? unfixable_lint f) || (negb feu && (0 <? discard_count f)))
  = existsb (remains_unfixable f feu) f || (negb feu && existsb (fun v => is_tp v && visible v) f).
Proof.
  unfold filtered_tp, unfixable_lint, discard_count, remains_unfixable, fixes_discarded, unfiltered_tp.
  autorewrite with pos. set (c := existsb is_tp f).
  rewrite orb_comm. f_equal.
  rewrite andb_assoc, <- existsb_and_const, <- existsb_or. apply existsb_ext_in. intros v _.
  unfold fixable, visible. destruct (is_lint v), (v_fixable v), (v_ign v), (v_warn v), feu, c; reflexivity.
Qed.

Lemma lint_fail_false fs : spec_lint_fail fs = false <-> forall f v, In f fs -> In v f -> visible v = false.
Proof.
  unfold spec_lint_fail. rewrite existsb_false. split.
  - intros H f v Hf. apply existsb_false, H, Hf.
  - intros H f Hf. apply existsb_false. intros v. apply H, Hf.
Qed.

(* fix fails only where lint fails: every way of failing needs a violation that is visible *)
Theorem fix_fail_lint_fail fs feu : spec_fix_fail fs feu = true -> spec_lint_fail fs = true.
Proof.
  apply existsb_impl. intros f H. apply orb_true_iff in H as [H|H].
  - revert H. apply existsb_impl. intros v H.
    apply andb_true_iff in H as [H _]. apply andb_true_iff in H as [_ H]. exact H.
  - apply andb_true_iff in H as [_ H]. revert H. apply existsb_impl. intros v H.
    apply andb_true_iff in H as [_ H]. exact H.
Qed.

(* stdin against paths on one file.  stdin decides "unfixable" before the fixes are discarded (F6), so the path runner
   fails in exactly one more case: a fix of a visible violation is discarded. *)
Theorem stdin_paths_exit f feu :
  paths_fix_exit [f] feu 0 false
  = Nat.max (fst (stdin_fix f feu)) (b2e (fixes_discarded f feu && existsb (fun v => fixable v && visible v) f)).
Proof.
  assert (T : existsb (fun v => is_tmp v && visible v) f = true -> existsb (fun v => is_tp v && visible v) f = true).
  { apply existsb_impl. intros v. unfold is_tmp, is_tp. destruct (v_kind v); try discriminate; auto. }
  (* the statement's predicate, associated as in discard_count, which the unfolding below brings up *)
  rewrite (existsb_ext_in _ (fun v => fixable v && negb (v_ign v) && negb (v_warn v)) f)
    by (intros v _; apply andb_assoc).
  unfold paths_fix_exit, paths_fix_exit_with, stdin_fix, unparsable_exit, fixes_discarded, discard_count, filtered_tp.
  cbn [fst sumf]. rewrite !Nat.add_0_r. autorewrite with pos.
  set (TM := existsb (fun v => is_tmp v && visible v) f) in *. set (TP := existsb (fun v => is_tp v && visible v) f) in *.
  destruct TM; [rewrite T by reflexivity|];
    destruct feu, TP, (0 <? unfixable_lint f), (0 <? unfiltered_tp f), (existsb _ f); reflexivity.
Qed.

Corollary stdin_exit_agrees f feu :
  (fixes_discarded f feu = true -> existsb (fun v => fixable v && visible v) f = false) ->
  fst (stdin_fix f feu) = paths_fix_exit [f] feu 0 false.
Proof.
  intros H. rewrite stdin_paths_exit. destruct (fixes_discarded f feu); [rewrite H by reflexivity|]; symmetry; apply Nat.max_0_r.
Qed.

Example gate_example :
  let f := [mkVS KPrs false true false; mkVS KLint true false false; mkVS KLint false false true] in
  paths_fix_exit [f] false 0 false = 1 /\ fst (stdin_fix f false) = 0 /\ lint_exit [f] false 0 false = 1
  /\ paths_written f false true = false /\ paths_fix_exit [f] true 0 false = 0.
Proof. vm_compute. repeat split. Qed.
