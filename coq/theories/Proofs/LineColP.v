(* get_line_pos_of_char_pos against its specification: bisect_left on the newline indices counts the newlines before the offset, and
   the index it lands on closes the line before the offset's own. *)
From SF Require Import Base.Prelude Model.LineCol.
From Coq Require Import Lia.

Lemma bisect_below : forall s b x, x <= b -> bisect_left (nl_indices_from b s) x = 0.
Proof.
  induction s as [|c s IH]; intros b x Hx; cbn [nl_indices_from]; [reflexivity|].
  destruct (is_nl c); cbn [bisect_left].
  - destruct (Nat.ltb_spec b x); [lia|reflexivity].
  - apply IH; lia.
Qed.

Lemma bisect_is_count : forall s b q, bisect_left (nl_indices_from b s) (b + q) = count_nl (firstn q s).
Proof.
  induction s as [|c s IH]; intros b q; [rewrite firstn_nil; reflexivity|].
  destruct q as [|q].
  - cbn [firstn count_nl]. apply bisect_below; lia.
  - cbn [firstn count_nl nl_indices_from]. replace (b + S q) with (S b + q) by lia.
    destruct (is_nl c); cbn [bisect_left]; [|apply IH].
    destruct (Nat.ltb_spec b (S b + q)); [|lia]. f_equal. apply IH.
Qed.

Lemma last_line_nonl : forall s, count_nl s = 0 -> last_line s = s.
Proof.
  induction s as [|c s IH]; intros H; [reflexivity|].
  cbn [count_nl] in H. cbn [last_line].
  destruct (is_nl c) eqn:Ec; [discriminate|]. rewrite H. reflexivity.
Qed.

Lemma last_line_app a b :
  last_line (a ++ b) = if count_nl b =? 0 then last_line a ++ b else last_line b.
Proof.
  induction a as [|c a IH].
  - cbn [app last_line]. destruct (Nat.eqb_spec (count_nl b) 0) as [E|E]; [apply last_line_nonl; exact E|reflexivity].
  - cbn [app last_line]. rewrite count_nl_app, IH.
    destruct (Nat.eqb_spec (count_nl b) 0) as [E|E].
    + rewrite E, Nat.add_0_r. destruct (count_nl a =? 0); [destruct (is_nl c); reflexivity|reflexivity].
    + destruct (Nat.eqb_spec (count_nl a + count_nl b) 0); [lia|reflexivity].
Qed.

(* the k-th newline, the rest of its line up to offset q, and the newline itself make up q *)
Lemma nth_nl_index : forall s b q k, q <= length s -> count_nl (firstn q s) = S k ->
  nth k (nl_indices_from b s) 0 + 1 + length (last_line (firstn q s)) = b + q.
Proof.
  induction s as [|c s IH]; intros b q k Hq Hk; [rewrite firstn_nil in Hk; discriminate|].
  destruct q as [|q]; [discriminate|]. cbn [length] in Hq. cbn [firstn count_nl last_line nl_indices_from] in *.
  destruct (is_nl c).
  - injection Hk as Hk. rewrite Hk. destruct k as [|k]; cbn [Nat.eqb nth].
    + rewrite firstn_length_le; lia.
    + specialize (IH (S b) q k). lia.
  - rewrite Hk. cbn [Nat.eqb]. specialize (IH (S b) q k). lia.
Qed.

Theorem line_pos_spec_lemma s p : p <= length s ->
  line_pos s p = (line_spec s p, col_spec s p).
Proof.
  intros Hp. unfold line_pos, line_pos_idx, line_spec, col_spec, nl_indices.
  rewrite (bisect_is_count s 0 p : bisect_left _ p = _). destruct (count_nl (firstn p s)) as [|k] eqn:E; cbn [Nat.ltb Nat.leb].
  - rewrite last_line_nonl, firstn_length_le by assumption. f_equal; lia.
  - pose proof (nth_nl_index s 0 p k Hp E). replace (S k - 1) with k by lia. f_equal; lia.
Qed.

Lemma count_nl_firstn_le s a b : a <= b -> count_nl (firstn a s) <= count_nl (firstn b s).
Proof.
  intros H. rewrite <- (firstn_skipn a (firstn b s)), count_nl_app, firstn_firstn, Nat.min_l by exact H. apply Nat.le_add_r.
Qed.

Lemma last_line_length t : length (last_line t) <= length t.
Proof.
  induction t as [|c t IHt]; cbn [last_line length]; [lia|].
  destruct (count_nl t =? 0); [destruct (is_nl c); cbn [length]; lia|lia].
Qed.

Theorem line_pos_bounds_lemma s p : p <= length s ->
  1 <= fst (line_pos s p) <= 1 + count_nl s /\ 1 <= snd (line_pos s p) <= p + 1.
Proof.
  intros Hp. rewrite line_pos_spec_lemma by exact Hp. cbn [fst snd]. unfold line_spec, col_spec.
  pose proof (count_nl_firstn_le s p (length s) Hp) as H. rewrite firstn_all in H.
  pose proof (last_line_length (firstn p s)) as G. rewrite firstn_length_le in G by exact Hp.
  lia.
Qed.

Theorem infer_next_lemma pre raw post :
  let s := pre ++ raw ++ post in
  line_pos s (length pre + length raw) = infer_next raw (line_pos s (length pre)).
Proof.
  intros s. subst s.
  rewrite !line_pos_spec_lemma by (rewrite !app_length; lia).
  unfold line_spec, col_spec.
  rewrite (firstn_length_app pre). rewrite (app_assoc pre raw post), <- app_length, firstn_length_app.
  destruct raw as [|c raw]; [rewrite app_nil_r; reflexivity|].
  unfold infer_next. cbn [fst snd]. rewrite count_nl_app, last_line_app.
  destruct (count_nl (c :: raw) =? 0); [rewrite app_length|]; f_equal; lia.
Qed.

Example line_pos_example :
  line_pos [97;10;98;99;10;10;100]%N 4 = (2, 3) /\ 4 <= length [97;10;98;99;10;10;100]%N.
Proof. split; [vm_compute; reflexivity|cbn; lia]. Qed.
