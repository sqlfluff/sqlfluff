(* Soundness of the indent certificate of Model/IndentFlow.v: a table closed under one unfolding of every definition bounds the net
   indent of every complete derivation (nets_sound, over the derivation relation `der`), so an accepted `check` means balance
   (check_sound); and check_rows, an equivalent of `check` over all valuations that evaluates the valuation-independent part once per
   table (check_shared), which is what the generated indent_balanced_<d> evaluate. *)
From SF Require Import Base.Prelude Model.IndentFlow.

(* The three list recursions inside `nets`, by name: `nets t val (GSeq l)` is `nets_seq t val l` by computation, and so on. *)
Definition nets_seq t val := fix go (l : list g) : option (list Z) :=
  match l with
  | [] => Some [0%Z]
  | y :: r => match nets t val y, go r with Some a, Some b => Some (zadd_set a b) | _, _ => None end
  end.
Definition nets_alt t val := fix go (l : list g) : option (list Z) :=
  match l with
  | [] => Some []
  | y :: r => match nets t val y, go r with Some a, Some b => Some (zunion a b) | _, _ => None end
  end.
Definition nets_star t val := fix go (l : list g) : option (list Z) :=
  match l with
  | [] => Some [0%Z]
  | y :: r => match nets t val y, go r with Some a, Some b => if all_zero a then Some b else None | _, _ => None end
  end.

Lemma zmem_In z l : zmem z l = true <-> In z l.
Proof. exact (existsb_eqb_In Z.eqb Z.eqb_eq z l). Qed.

Lemma zunion_In a b z : In z a \/ In z b -> In z (zunion a b).
Proof.
  unfold zunion. induction a as [|x r IH]; cbn [fold_right In]; [tauto|]. destruct (zmem x _) eqn:E; cbn [In].
  - intros [[<-|H]|H]; [apply zmem_In; exact E|tauto|tauto].
  - tauto.
Qed.

Lemma zadd_set_In a b x y : In x a -> In y b -> In (x + y)%Z (zadd_set a b).
Proof.
  intros Ha Hb. change (In (x + y)%Z (zunion (flat_map (fun x => map (Z.add x) b) a) [])).
  apply zunion_In. left. apply in_flat_map. exists x. split; [exact Ha|]. apply in_map. exact Hb.
Qed.

Lemma all_zero_In l z : all_zero l = true -> In z l -> z = 0%Z.
Proof. unfold all_zero. rewrite forallb_forall. intros H Hz. apply H in Hz. apply Z.eqb_eq in Hz. congruence. Qed.

Lemma nets_alt_In t val l y s : In y l -> nets_alt t val l = Some s -> exists a, nets t val y = Some a /\ incl a s.
Proof.
  revert s. induction l as [|y' r IH]; [contradiction|]. cbn [nets_alt]. intros s Hy H.
  destruct (nets t val y') as [a|] eqn:Ea; [|discriminate]. destruct (nets_alt t val r) as [b|]; [|discriminate].
  injection H as <-. destruct Hy as [->|Hy].
  - exists a. split; [exact Ea|]. intros z Hz. apply zunion_In. tauto.
  - destruct (IH b Hy eq_refl) as [a' [E Hs]]. exists a'. split; [exact E|]. intros z Hz. apply zunion_In. auto.
Qed.

(* a repetition is accepted only if every option is balanced, and is then balanced itself *)
Lemma nets_star_inv t val l s : nets_star t val l = Some s ->
  s = [0%Z] /\ forall y, In y l -> exists a, nets t val y = Some a /\ all_zero a = true.
Proof.
  revert s. induction l as [|y r IH]; cbn [nets_star]; intros s H; [injection H as <-; split; [reflexivity|contradiction]|].
  destruct (nets t val y) as [a|] eqn:Ea; [|discriminate]. destruct (nets_star t val r) as [b|]; [|discriminate].
  destruct (all_zero a) eqn:Ez; [|discriminate]. injection H as <-. destruct (IH b eq_refl) as [-> Hr].
  split; [reflexivity|]. intros y' [<-|Hy]; [exists a; auto|auto].
Qed.

Section Sound.
  Variable env : list (N * g).
  Variable val : valuation.

  (* net indent of a complete derivation *)
  Inductive der : g -> Z -> Prop :=
  | d_leaf : der GLeaf 0
  | d_meta v : der (GMeta v) v
  | d_cond conds v : der (GCond conds v) (if cond_on val conds then v else 0%Z)
  | d_ref n body z : In (n, body) env -> der body z -> der (GRef n) z
  | d_seq l z : der_seq l z -> der (GSeq l) z
  | d_alt l y z : In y l -> der y z -> der (GAlt l) z
  | d_star l z : der_star l z -> der (GStar l) z
  with der_seq : list g -> Z -> Prop :=
  | ds_nil : der_seq [] 0
  | ds_cons y r a b : der y a -> der_seq r b -> der_seq (y :: r) (a + b)
  with der_star : list g -> Z -> Prop :=
  | dst_nil l : der_star l 0
  | dst_cons l y a b : In y l -> der y a -> der_star l b -> der_star l (a + b).

  Scheme der_mut := Induction for der Sort Prop
    with der_seq_mut := Induction for der_seq Sort Prop
    with der_star_mut := Induction for der_star Sort Prop.

  Variable t : table.
  Hypothesis closed : forall n body, In (n, body) env -> exists s, nets t val body = Some s /\ subset s (tbl_get t n) = true.

  Theorem nets_sound : forall x z, der x z -> forall s, nets t val x = Some s -> In z s.
  Proof.
    (* for a repetition the claim is not membership but z = 0: nets accepts a GStar only if every option is balanced *)
    apply (der_mut (fun x z _ => forall s, nets t val x = Some s -> In z s)
                   (fun l z _ => forall s, nets_seq t val l = Some s -> In z s)
                   (fun l z _ => forall s, nets_star t val l = Some s -> z = 0%Z)).
    - intros s [= <-]. left. reflexivity.
    - intros v s [= <-]. left. reflexivity.
    - intros conds v s [= <-]. left. reflexivity.
    - intros n body z Hin _ IH s [= <-]. destruct (closed n body Hin) as [s' [E Hs]].
      unfold subset in Hs. rewrite forallb_forall in Hs. apply zmem_In, Hs, IH, E.
    - intros l z _ IH. exact IH.
    - intros l y z Hin _ IH s H. destruct (nets_alt_In _ _ _ _ _ Hin H) as [a [E Hs]]. apply Hs, IH, E.
    - intros l z _ IH s H. rewrite (IH s H). destruct (nets_star_inv _ _ _ _ H) as [-> _]. left. reflexivity.
    - intros s [= <-]. left. reflexivity.
    - intros y r a b _ IHy _ IHr s H. cbn [nets_seq] in H.
      destruct (nets t val y) as [sa|]; [|discriminate]. destruct (nets_seq t val r) as [sb|]; [|discriminate].
      injection H as <-. apply zadd_set_In; auto.
    - reflexivity.
    - intros l y a b Hin _ IHy _ IHr s H. destruct (nets_star_inv _ _ _ _ H) as [_ Hl].
      destruct (Hl y Hin) as [sa [Ea Ez]]. rewrite (all_zero_In _ _ Ez (IHy sa Ea)), (IHr s H). reflexivity.
  Qed.
End Sound.

(* the certificate: if `check` accepts, every complete derivation from the root has net indent 0 under that valuation *)
Theorem check_sound env t val root z :
  check env t val root = true -> der env val (GRef root) z -> z = 0%Z.
Proof.
  intros H D. apply andb_true_iff in H as [H _]. apply andb_true_iff in H as [Hc Hz].
  rewrite forallb_forall in Hc. apply (all_zero_In _ _ Hz). apply (nets_sound env val t) with (x := GRef root); [|exact D|reflexivity].
  intros n body Hin. specialize (Hc (n, body) Hin). cbn [fst snd] in Hc. destruct (nets t val body) as [s|]; [exists s; auto|discriminate].
Qed.

(* Sharing the work between valuations: `nets` looks at the valuation only at GCond nodes, so a definition without any is
   checked once per table, not once per valuation; the translator's tables rarely differ between valuations. *)
Fixpoint cond_free (x : g) : bool :=
  match x with
  | GCond _ _ => false
  | GSeq l | GAlt l | GStar l => forallb cond_free l
  | _ => true
  end.

Lemma g_ind' (P : g -> Prop) :
  P GLeaf -> (forall v, P (GMeta v)) -> (forall c v, P (GCond c v)) -> (forall n, P (GRef n)) ->
  (forall l, Forall P l -> P (GSeq l)) -> (forall l, Forall P l -> P (GAlt l)) -> (forall l, Forall P l -> P (GStar l)) ->
  forall x, P x.
Proof.
  intros HL HM HC HR HS HA HT. fix IH 1. intros [|v|c v|n|l|l|l].
  1-4: clear IH; auto.
  all: [> apply HS | apply HA | apply HT]; induction l; constructor; auto.
Qed.

Lemma nets_cond_free t val val' x : cond_free x = true -> nets t val x = nets t val' x.
Proof.
  induction x as [| | | |l IH|l IH|l IH] using g_ind'; cbn [cond_free nets]; try reflexivity; try discriminate.
  all: induction IH as [|y r Hy _ IHr]; cbn [forallb]; [reflexivity|].
  all: intros H; apply andb_true_iff in H as [H1 H2]; rewrite (Hy H1), (IHr H2); reflexivity.
Qed.

(* the test `check` makes per definition, and its test at the root, in the words of Model.IndentFlow.check: check_split unfolds both
   sides to the same text *)
Definition def_ok (t : table) (val : valuation) (d : N * g) : bool :=
  match nets t val (snd d) with Some s => subset s (tbl_get t (fst d)) | None => false end.

Definition root_ok (t : table) (root : N) : bool :=
  all_zero (tbl_get t root) && negb (match tbl_get t root with [] => true | _ => false end).

Definition table_eq_dec (a b : table) : {a = b} + {a <> b}.
Proof. repeat decide equality. Defined.

Section Shared.
  Variables (env : list (N * g)) (root : N).
  Let fixed := filter (fun d => cond_free (snd d)) env.
  Let var := filter (fun d => negb (cond_free (snd d))) env.

  (* the part of `check` that no valuation can change *)
  Definition fixed_ok (t : table) : bool := forallb (def_ok t (fun _ => false)) fixed && root_ok t root.

  (* `prev`: the table of the row before, for which fixed_ok has been evaluated already *)
  Fixpoint check_rows (prev : option table) (tabs : list (list N * table)) : bool :=
    match tabs with
    | [] => true
    | (ons, t) :: r =>
        (match prev with Some t0 => if table_eq_dec t t0 then true else fixed_ok t | None => fixed_ok t end)
        && forallb (def_ok t (val_of ons)) var && check_rows (Some t) r
    end.

  Lemma check_split t val : fixed_ok t = true -> forallb (def_ok t val) var = true -> check env t val root = true.
  Proof.
    unfold fixed_ok, root_ok, check, fixed, var. intros Hf Hv. apply andb_true_iff in Hf as [Hf Hr]. rewrite forallb_forall in Hf, Hv.
    rewrite <- andb_assoc, Hr, andb_true_r. apply forallb_forall. intros d Hd.
    destruct (cond_free (snd d)) eqn:E.
    - specialize (Hf d). rewrite filter_In in Hf. rewrite (nets_cond_free t val (fun _ => false) _ E). auto.
    - apply (Hv d). apply filter_In. rewrite E. auto.
  Qed.

  Lemma check_rows_sound tabs : forall prev, (forall t0, prev = Some t0 -> fixed_ok t0 = true) -> check_rows prev tabs = true ->
    forallb (fun vt => check env (snd vt) (val_of (fst vt)) root) tabs = true.
  Proof.
    induction tabs as [|[ons t] r IH]; intros prev Hp H; [reflexivity|]. cbn [check_rows] in H.
    apply andb_true_iff in H as [H Hr]. apply andb_true_iff in H as [Hf Hv].
    assert (Ht : fixed_ok t = true).
    { destruct prev as [t0|]; [|exact Hf]. destruct (table_eq_dec t t0) as [->|_]; [apply Hp; reflexivity|exact Hf]. }
    cbn [forallb fst snd]. rewrite (check_split t _ Ht Hv). apply (IH (Some t)); [|exact Hr]. intros t0 [= <-]. exact Ht.
  Qed.
End Shared.

Theorem check_shared env root tabs :
  check_rows env root None tabs = true -> forallb (fun vt => check env (snd vt) (val_of (fst vt)) root) tabs = true.
Proof. apply check_rows_sound. discriminate. Qed.
