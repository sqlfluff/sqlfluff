(* Lemmas about Model/Record.v (C28).  structural_simplify preserves every traversal (simplify_trav); to_tuple, at a node, is its
   visible children in order under every traversal (trav_to_tuple_node); the human format likewise (hleaves_stringify_node).
   Every statement about tokens, paths and texts is one induction over the tree from these. *)
From SF Require Import Base.Prelude Base.Sort Model.Record.

(* Induction over the nested types with the hypothesis for every child.  The recursive calls that [induction cs] leaves under
   [fix] are on members of cs, which the guard checker accepts. *)
Lemma tup_ind' (P : tup -> Prop) :
  (forall k s p, P (TStr k s p)) -> (forall k cs p, (forall c, In c cs -> P c) -> P (TTup k cs p)) -> forall t, P t.
Proof.
  intros Hstr Htup. fix IH 1. intros [|k cs p]; [apply Hstr|].
  apply Htup. induction cs as [|x r IHr]; intros c Hc; [destruct Hc|].
  destruct Hc as [<-|Hc]; [apply IH|apply IHr, Hc].
Qed.

Lemma seg_ind' (P : seg -> Prop) :
  (forall ty raw code cmt pos, P (SRaw ty raw code cmt pos)) ->
  (forall ty src pos, P (SMeta ty src pos)) ->
  (forall ty csep cmt pos segs, (forall c, In c segs -> P c) -> P (SNode ty csep cmt pos segs)) ->
  forall s, P s.
Proof.
  intros Hraw Hmeta Hnode. fix IH 1. intros [| |ty csep cmt pos segs]; [apply Hraw|apply Hmeta|].
  apply Hnode. induction segs as [|x r IHr]; intros c Hc; [destruct Hc|].
  destruct Hc as [<-|Hc]; [apply IH|apply IHr, Hc].
Qed.

Lemma nodupb_NoDup l : nodupb l = true <-> NoDup l.
Proof. exact (list_nodupb_NoDup text_eqb text_eqb_eq l). Qed.

Lemma dict_set_fresh d k v : ~ In k (dict_keys d) -> dict_set d k v = d ++ [(k, v)].
Proof.
  induction d as [|[k' v'] d IH]; cbn [dict_set dict_keys map fst app In]; intros H; [reflexivity|].
  destruct (text_eqb k' k) eqn:E.
  - apply text_eqb_eq in E. exfalso. apply H. left. exact E.
  - rewrite IH; [reflexivity|]. intros Hin. apply H. right. exact Hin.
Qed.

Lemma dict_keys_app a b : dict_keys (a ++ b) = dict_keys a ++ dict_keys b.
Proof. apply map_app. Qed.

Lemma dict_update_fresh : forall r d, NoDup (dict_keys d ++ dict_keys r) -> dict_update d r = d ++ r.
Proof.
  unfold dict_update.
  induction r as [|[k v] r IH]; intros d H; cbn [fold_left fst snd].
  - rewrite app_nil_r. reflexivity.
  - cbn [dict_keys map fst] in H.
    assert (Hk : ~ In k (dict_keys d)).
    { apply NoDup_remove_2 in H. intros Hin. apply H. apply in_or_app. left. exact Hin. }
    rewrite (dict_set_fresh d k v Hk). rewrite IH.
    + rewrite <- app_assoc. reflexivity.
    + rewrite dict_keys_app. cbn [dict_keys map fst]. rewrite <- app_assoc. exact H.
Qed.

Lemma fold_dict_update cs : forall d, fold_left dict_update cs d = dict_update d (concat cs).
Proof.
  induction cs as [|c cs IH]; intros d; cbn [fold_left concat]; [reflexivity|].
  rewrite IH. unfold dict_update. rewrite fold_left_app. reflexivity.
Qed.

(* what simplify stores under the key of a tuple with children: None, one merged dict, or the list of the children's dicts *)
Definition pack (contents : list record) : rval :=
  match contents with
  | [] => RNone
  | _ => if negb (nodupb (flat_map dict_keys contents)) then RList contents
         else RDict (fold_left dict_update contents [])
  end.

Lemma simplify_ttup k cs p : simplify (TTup k cs p) = dict_set (result0 p) k (pack (map simplify cs)).
Proof. destruct cs; [reflexivity|]. cbn [simplify map pack]. destruct (negb _); reflexivity. Qed.

Section TravProofs.
  Variable B : Type.
  Variable leaf : text -> text -> list B.
  Variable node : text -> list B -> list B.
  Notation trav_tup := (trav_tup B leaf node).
  Notation trav_val := (trav_val B leaf node).
  Notation trav_rec := (trav_rec B leaf node).

  Lemma trav_rec_cons k v r : trav_rec ((k, v) :: r) = trav_val k v ++ trav_rec r.
  Proof. reflexivity. Qed.

  (* entries that contribute nothing (the position dict) do not matter: setting k in such a dict leaves k's entry alone *)
  Lemma trav_dict_set_nil d k v : trav_rec d = [] -> trav_rec (dict_set d k v) = trav_val k v.
  Proof.
    induction d as [|[k' v'] d IH]; cbn [dict_set]; intros H.
    - rewrite trav_rec_cons. apply app_nil_r.
    - rewrite trav_rec_cons in H. apply app_eq_nil in H as [Hv Hd]. destruct (text_eqb k' k) eqn:E.
      + apply text_eqb_eq in E. subst k'. rewrite trav_rec_cons, Hd. apply app_nil_r.
      + rewrite trav_rec_cons, Hv. apply IH, Hd.
  Qed.

  Lemma trav_dict_update_pos p : forall d, trav_rec d = [] -> trav_rec (dict_update_pos d p) = [].
  Proof.
    induction p as [|[k z] p IH]; intros d H; cbn [fold_left fst snd]; [exact H|].
    apply IH. rewrite trav_dict_set_nil by exact H. reflexivity.
  Qed.

  Lemma trav_result0 p : trav_rec (result0 p) = [].
  Proof. destruct p as [d|]; [apply trav_dict_update_pos|]; reflexivity. Qed.

  (* merged into one dict or kept as a list, the children's entries are met in the same order *)
  Lemma trav_val_pack k l : trav_val k (pack l) = node k (flat_map trav_rec l).
  Proof.
    destruct l as [|c l']; [reflexivity|]. unfold pack. set (l := c :: l').
    destruct (nodupb (flat_map dict_keys l)) eqn:En; cbn [negb]; [|reflexivity].
    apply nodupb_NoDup in En. rewrite fold_dict_update, dict_update_fresh.
    2:{ unfold dict_keys at 2. rewrite concat_map, <- flat_map_concat_map. exact En. }
    cbn [app]. change (node k (trav_rec (concat l)) = node k (flat_map trav_rec l)).
    f_equal. apply flat_map_concat.
  Qed.

  Theorem simplify_trav : forall t, trav_rec (simplify t) = trav_tup t.
  Proof.
    induction t as [k s p|k cs p IH] using tup_ind'.
    - cbn [simplify]. apply trav_dict_set_nil, trav_result0.
    - rewrite simplify_ttup, trav_dict_set_nil by apply trav_result0.
      rewrite trav_val_pack, flat_map_map. cbn [Record.trav_tup]. f_equal. apply flat_map_ext_in, IH.
  Qed.
End TravProofs.

Theorem simplify_leaves t : leaves_rec (simplify t) = leaves_tup t.
Proof. apply simplify_trav. Qed.

Theorem simplify_nesting t : paths_rec (simplify t) = paths_tup t.
Proof. apply simplify_trav. Qed.

Lemma trav_tup_erase : forall t,
  trav_tup tup (fun k s => [TStr k s None]) (fun k l => [TTup k l None]) t = [erase_pos t].
Proof.
  induction t as [k s p|k cs p IH] using tup_ind'; [reflexivity|].
  cbn [trav_tup erase_pos]. rewrite <- flat_map_single, (flat_map_ext_in _ _ _ IH). reflexivity.
Qed.

Theorem simplify_lossless t : untuple (simplify t) = [erase_pos t].
Proof. unfold untuple. rewrite simplify_trav. apply trav_tup_erase. Qed.

Corollary simplify_injective t1 t2 : simplify t1 = simplify t2 -> erase_pos t1 = erase_pos t2.
Proof.
  intros H. apply (f_equal untuple) in H.
  rewrite !simplify_lossless in H. inversion H. reflexivity.
Qed.

Lemma seq_res_map_ok {A C} (f : A -> res C) (g : A -> C) l :
  (forall x, In x l -> f x = Ok (g x)) -> seq_res (map f l) = Ok (map g l).
Proof.
  induction l as [|x l IH]; intros H; [reflexivity|].
  unfold seq_res in *. cbn [map fold_right]. rewrite (H x (or_introl eq_refl)), IH; [reflexivity|].
  intros y Hy. apply H. right. exact Hy.
Qed.

(* the model with the asserts agrees with the typed model on every well-typed tuple: no assert can fire *)
Theorem simplify_pv_embed : forall t, simplify_pv (embed t) = Ok (simplify t).
Proof.
  induction t as [k s p|k cs p IH] using tup_ind'.
  - destruct p as [d|]; reflexivity.
  - rewrite simplify_ttup. apply seq_res_map_ok in IH. rewrite <- map_map in IH.
    destruct cs as [|c cs']; [destruct p as [d|]; reflexivity|]. cbn [map] in IH.
    destruct p as [d|]; cbn [embed embed_pos map simplify_pv]; rewrite IH; cbn [bind pack result0];
      destruct (negb _); reflexivity.
Qed.

Lemma texts_app a b : texts (a ++ b) = texts a ++ texts b.
Proof. unfold texts. rewrite map_app, concat_app. reflexivity. Qed.

Lemma texts_flat_map {A} (f : A -> list tok) l : texts (flat_map f l) = flat_map (fun x => texts (f x)) l.
Proof. induction l as [|x l IH]; cbn [flat_map]; [reflexivity|rewrite texts_app, IH; reflexivity]. Qed.

Lemma is_meta_raw_nil s : is_meta s = true -> raw_of s = [].
Proof. destruct s; cbn [is_meta raw_of]; congruence. Qed.

(* the children to_tuple keeps *)
Definition vis (co im : bool) (c : seg) : bool :=
  if co then is_code c && negb (is_meta c) else im || negb (is_meta c).

Lemma to_tuple_node co im ip ty csep cmt pos segs :
  to_tuple co true im ip (SNode ty csep cmt pos segs)
  = if is_nil segs then TStr ty [] (with_pos ip pos)
    else TTup ty (flat_map (fun c => if vis co im c then [to_tuple co true im ip c] else []) segs) (with_pos ip pos).
Proof. cbn [to_tuple andb]. destruct segs; [reflexivity|]. destruct co; reflexivity. Qed.

Lemma trav_to_tuple_node B lf nd co im ip ty csep cmt pos segs : is_nil segs = false ->
  trav_tup B lf nd (to_tuple co true im ip (SNode ty csep cmt pos segs))
  = nd ty (flat_map (fun c => if vis co im c then trav_tup B lf nd (to_tuple co true im ip c) else []) segs).
Proof.
  intros H. rewrite to_tuple_node, H. cbn [trav_tup]. rewrite flat_map_flat_map. f_equal.
  apply flat_map_ext. intros c. destruct (vis co im c); [apply app_nil_r|reflexivity].
Qed.

(* Concatenating the token texts of the tuple form (no code_only, no metas) gives the raw of the tree. *)
Theorem to_tuple_concat : forall ip s, is_meta s = false -> texts (leaves_tup (to_tuple false true false ip s)) = raw_of s.
Proof.
  intros ip. induction s as [ty raw code cmt pos|ty src pos|ty csep cmt pos segs IH] using seg_ind'; intros Hm.
  - cbn. apply app_nil_r.
  - discriminate.
  - destruct (is_nil segs) eqn:En. { destruct segs; [reflexivity|discriminate]. }
    unfold leaves_tup. rewrite trav_to_tuple_node by exact En. cbn [raw_of].
    rewrite texts_flat_map, <- flat_map_concat_map. apply flat_map_ext_in. intros c Hc.
    unfold vis. cbn [orb]. destruct (is_meta c) eqn:Em; cbn [negb]; [|apply IH; [exact Hc|exact Em]].
    symmetry. apply is_meta_raw_nil, Em.
Qed.

(* With metas included: the texts of the entries whose type is not a meta type still concatenate to the raw. *)
Theorem to_tuple_concat_meta : forall mt im ip s, meta_typed mt s = true -> is_meta s = false ->
  texts (filter (fun t : tok => negb (mt (fst t))) (leaves_tup (to_tuple false true im ip s))) = raw_of s.
Proof.
  intros mt im ip.
  induction s as [ty raw code cmt pos|ty src pos|ty csep cmt pos segs IH] using seg_ind'; intros Ht Hm.
  - cbn in Ht |- *. rewrite Ht. cbn. apply app_nil_r.
  - discriminate.
  - cbn [meta_typed] in Ht. apply andb_true_iff in Ht as [Hty Hall]. rewrite forallb_forall in Hall.
    destruct (is_nil segs) eqn:En. { destruct segs; [|discriminate]. cbn. rewrite Hty. reflexivity. }
    unfold leaves_tup. rewrite trav_to_tuple_node by exact En. cbn [raw_of].
    rewrite filter_flat_map, texts_flat_map, <- flat_map_concat_map. apply flat_map_ext_in. intros c Hc.
    specialize (Hall c Hc). destruct (is_meta c) eqn:Em.
    + rewrite (is_meta_raw_nil c Em). destruct (vis false im c); [|reflexivity].
      destruct c as [|ty' [src|] pos'|]; try discriminate; cbn in Hall |- *; rewrite Hall; reflexivity.
    + unfold vis. rewrite Em. cbn [negb]. rewrite orb_true_r. apply IH; assumption.
Qed.

(* text shown for a raw segment by to_tuple(show_raw=True) *)
Definition shown_text (r : seg) : text := match r with SMeta _ (Some src) _ => src | _ => raw_of r end.
Definition shown_tok (r : seg) : tok := (seg_type r, shown_text r).

Lemma nonempty_nodes_node ty csep cmt pos segs : nonempty_nodes (SNode ty csep cmt pos segs) = true ->
  is_nil segs = false /\ forall c, In c segs -> nonempty_nodes c = true.
Proof. cbn [nonempty_nodes]. rewrite andb_true_iff, negb_true_iff, forallb_forall. trivial. Qed.

Lemma noncode_raw_segments : forall s, is_code s = false -> filter is_code (raw_segments s) = [].
Proof.
  induction s as [ty raw code cmt pos|ty src pos|ty csep cmt pos segs IH] using seg_ind'; intros H.
  - cbn in *. rewrite H. reflexivity.
  - reflexivity.
  - cbn [is_code] in H. cbn [raw_segments]. rewrite filter_flat_map. apply flat_map_nil_in.
    intros c Hc. apply IH; [exact Hc|]. exact (proj1 (existsb_false _ _) H c Hc).
Qed.

Lemma code_not_meta s : is_code s = true -> is_meta s = false.
Proof. destruct s; cbn; congruence. Qed.

Lemma vis_code im r : vis true im r = is_code r.
Proof. unfold vis. destruct (is_code r) eqn:E; [|reflexivity]. rewrite (code_not_meta r E). reflexivity. Qed.

Lemma vis_node im s : is_node s = true -> vis false im s = true.
Proof. destruct s; try discriminate. intros _. apply orb_true_r. Qed.

Lemma invisible_meta im s : vis false im s = false -> is_meta s = true.
Proof. unfold vis. destruct (is_meta s); [reflexivity|]. rewrite orb_true_r. discriminate. Qed.

(* the raw segments below an invisible child are all invisible *)
Lemma vis_down co im c : vis co im c = false -> filter (vis co im) (raw_segments c) = [].
Proof.
  destruct co.
  - rewrite vis_code, (filter_ext _ _ (vis_code im)). apply noncode_raw_segments.
  - intros H. destruct c; try discriminate (invisible_meta im _ H). cbn [raw_segments filter]. rewrite H. reflexivity.
Qed.

(* Every visible raw segment is listed once, in order (all flag combinations of show_raw=True at once). *)
Theorem to_tuple_leaves (co im ip : bool) : forall s, (if co then is_code s else nonempty_nodes s) = true -> vis co im s = true ->
  leaves_tup (to_tuple co true im ip s) = map shown_tok (filter (vis co im) (raw_segments s)).
Proof.
  induction s as [ty raw code cmt pos|ty src pos|ty csep cmt pos segs IH] using seg_ind'; intros Hok Hv.
  - cbn [raw_segments filter]. rewrite Hv. reflexivity.
  - cbn [raw_segments filter]. rewrite Hv. destruct src; reflexivity.
  - assert (H : is_nil segs = false /\ forall c, In c segs -> vis co im c = true -> (if co then is_code c else nonempty_nodes c) = true).
    { destruct co.
      - split; [destruct segs; [discriminate|reflexivity]|]. intros c _ Hc. apply andb_true_iff in Hc. apply Hc.
      - apply nonempty_nodes_node in Hok as [H1 H2]. auto. }
    destruct H as [En Hch]. unfold leaves_tup. rewrite trav_to_tuple_node by exact En.
    cbn [raw_segments]. rewrite filter_flat_map, map_flat_map. apply flat_map_ext_in. intros c Hc.
    destruct (vis co im c) eqn:Ev; [apply IH; auto|]. rewrite vis_down by exact Ev. reflexivity.
Qed.

(* Every visible raw segment appears once, in order, under the type path it has in the tree. *)
Theorem to_tuple_paths im ip : forall s, nonempty_nodes s = true -> vis false im s = true ->
  paths_tup (to_tuple false true im ip s)
  = map (fun pr => (fst pr, shown_text (snd pr))) (filter (fun pr => vis false im (snd pr)) (paths_seg s)).
Proof.
  induction s as [ty raw code cmt pos|ty src pos|ty csep cmt pos segs IH] using seg_ind'; intros Hne Hv.
  - cbn [paths_seg filter snd]. rewrite Hv. reflexivity.
  - cbn [paths_seg filter snd]. rewrite Hv. destruct src; reflexivity.
  - apply nonempty_nodes_node in Hne as [En Hch]. unfold paths_tup. rewrite trav_to_tuple_node by exact En.
    cbn [paths_seg]. rewrite filter_map_swap, map_map. cbn [fst snd]. unfold push.
    rewrite <- (map_map (fun pr => (fst pr, shown_text (snd pr))) (fun pt => (ty :: fst pt, snd pt))). f_equal.
    rewrite filter_flat_map, map_flat_map. apply flat_map_ext_in. intros c Hc.
    destruct (vis false im c) eqn:Ev; [apply IH; auto|].
    destruct c; try discriminate (invisible_meta im _ Ev). cbn [paths_seg filter snd]. rewrite Ev. reflexivity.
Qed.

Definition nonmeta (r : seg) : bool := negb (is_meta r).

Lemma separates_children ty csep cmt pos segs :
  separates (SNode ty csep cmt pos segs) = false ->
  (csep && negb (is_nil (filter is_cmt segs))) = false /\ forall c, In c segs -> separates c = false.
Proof.
  cbn [separates]. intros H. apply orb_false_iff in H as [H1 H2]. split; [exact H1|apply existsb_false, H2].
Qed.

Lemma hleaves_app a b : hleaves (a ++ b) = hleaves a ++ hleaves b.
Proof. apply flat_map_app. Qed.

(* the tokens printed for a node are those of its children, the comments first when they are separated *)
Lemma hleaves_stringify_node i co ty csep cmt pos segs :
  hleaves (stringify i co (SNode ty csep cmt pos segs))
  = if negb co && csep && negb (is_nil (filter is_cmt segs))
    then flat_map (fun c => if is_cmt c then hleaves (stringify (i + 2) co c) else []) segs
         ++ flat_map (fun c => if negb (is_cmt c) then hleaves (stringify (i + 2) co c) else []) segs
    else flat_map (fun c => if negb co || is_code c then hleaves (stringify (i + 1) co c) else []) segs.
Proof.
  assert (Hfm : forall (q : seg -> bool) j, hleaves (flat_map (fun c => if q c then stringify j co c else []) segs)
                                            = flat_map (fun c => if q c then hleaves (stringify j co c) else []) segs).
  { intros q j. unfold hleaves at 1. rewrite flat_map_flat_map. apply flat_map_ext. intros c. destruct (q c); reflexivity. }
  cbn [stringify]. change (hleaves (HSeg i false ty None :: ?l)) with (hleaves l).
  destruct (negb co && csep && negb (is_nil (filter is_cmt segs))); [|apply Hfm].
  rewrite hleaves_app.
  change (hleaves (HHdr (i + 1) true :: ?l)) with (hleaves l). rewrite Hfm. f_equal.
  destruct (filter (fun c => negb (is_cmt c)) segs) eqn:Ef; cbn [is_nil negb].
  - (* no other child: neither header nor lines *)
    rewrite <- flat_map_filter, Ef. reflexivity.
  - change (hleaves (HHdr (i + 1) false :: ?l)) with (hleaves l). apply Hfm.
Qed.

Theorem stringify_tokens : forall s i, separates s = false ->
  hleaves (stringify i false s) = map seg_tok (filter nonmeta (raw_segments s)).
Proof.
  induction s as [ty raw code cmt pos|ty src pos|ty csep cmt pos segs IH] using seg_ind'; intros i Hs; try reflexivity.
  apply separates_children in Hs as [H1 Hall]. rewrite hleaves_stringify_node. cbn [negb andb orb]. rewrite H1.
  cbn [raw_segments]. rewrite filter_flat_map, map_flat_map. apply flat_map_ext_in. auto.
Qed.

Theorem stringify_tokens_code_only : forall s i, is_code s = true ->
  hleaves (stringify i true s) = map seg_tok (filter is_code (raw_segments s)).
Proof.
  induction s as [ty raw code cmt pos|ty src pos|ty csep cmt pos segs IH] using seg_ind'; intros i H.
  - cbn in *. rewrite H. reflexivity.
  - discriminate.
  - rewrite hleaves_stringify_node. cbn [negb andb orb raw_segments]. rewrite filter_flat_map, map_flat_map.
    apply flat_map_ext_in. intros c Hc. destruct (is_code c) eqn:Ec; [auto|]. rewrite noncode_raw_segments by exact Ec. reflexivity.
Qed.

(* Whatever the comment_separate flags: the human format shows every non-meta raw segment exactly once. *)
Theorem stringify_perm : forall s i,
  Permutation (hleaves (stringify i false s)) (map seg_tok (filter nonmeta (raw_segments s))).
Proof.
  induction s as [ty raw code cmt pos|ty src pos|ty csep cmt pos segs IH] using seg_ind'; intros i; try apply Permutation_refl.
  rewrite hleaves_stringify_node. cbn [negb andb orb raw_segments]. rewrite filter_flat_map, map_flat_map.
  assert (Hch : forall j, Permutation (flat_map (fun c => hleaves (stringify j false c)) segs)
                                      (flat_map (fun x => map seg_tok (filter nonmeta (raw_segments x))) segs)).
  { intros j. apply flat_map_perm. auto. }
  destruct (csep && negb (is_nil (filter is_cmt segs))); [|apply Hch].
  etransitivity; [apply partition_perm|apply Hch].
Qed.

(* The human format is not always in file order: a comment inside a comment_separate (unparsable) node is moved to the front. *)
Definition reorder_witness : seg :=
  SNode [117]%N true false None
        [SRaw [119]%N [120]%N true false None; SRaw [99]%N [45;45]%N false true None].

