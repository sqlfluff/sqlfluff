From SF Require Import Base.Prelude Base.Sort Model.Dedup.

Lemma sig_eqb_eq a b : sig_eqb a b = true <-> a = b.
Proof.
  destruct a as [[[a1 a2] a3] a4], b as [[[b1 b2] b3] b4]. cbn [sig_eqb]. split.
  - intros H. repeat (apply andb_true_iff in H as [H ?]). f_equal; [f_equal; [f_equal|]|]; apply Nat.eqb_eq; assumption.
  - intros H. inversion H. rewrite !Nat.eqb_refl. reflexivity.
Qed.

Lemma mem_seen s seen : existsb (sig_eqb s) seen = true <-> In s seen.
Proof. exact (existsb_eqb_In sig_eqb sig_eqb_eq s seen). Qed.

Lemma dedup_seen_spec : forall l seen,
  NoDup (map signature (dedup_seen seen l))
  /\ (forall w, In w (dedup_seen seen l) -> In w l /\ ~ In (signature w) seen)
  /\ (forall v, In v l -> In (signature v) seen \/ exists w, In w (dedup_seen seen l) /\ signature w = signature v).
Proof.
  induction l as [|v r IH]; intros seen; cbn [dedup_seen].
  - split; [constructor|]. split; [intros w []|intros v []].
  - destruct (existsb (sig_eqb (signature v)) seen) eqn:E.
    + apply mem_seen in E. destruct (IH seen) as [N [S C]].
      split; [exact N|]. split.
      * intros w Hw. destruct (S w Hw). split; [right; assumption|assumption].
      * intros x [<-|Hx]; [left; exact E|apply C; exact Hx].
    + assert (Hn : ~ In (signature v) seen) by (intros H; apply mem_seen in H; congruence).
      destruct (IH (signature v :: seen)) as [N [S C]].
      split; [|split].
      * cbn [map]. constructor; [|exact N]. intros Hin. apply in_map_iff in Hin as [w [Ew Hw]].
        destruct (S w Hw) as [_ Hns]. apply Hns. left. symmetry. exact Ew.
      * intros w [<-|Hw]; [split; [left; reflexivity|exact Hn]|].
        destruct (S w Hw) as [H1 H2]. split; [right; exact H1|]. intros H; apply H2; right; exact H.
      * intros x [<-|Hx]; [right; exists v; split; [left; reflexivity|reflexivity]|].
        destruct (C x Hx) as [[Hs|Hs]|[w [Hw Ew]]].
        -- right. exists v. split; [left; reflexivity|exact Hs].
        -- left; exact Hs.
        -- right. exists w. split; [right; exact Hw|exact Ew].
Qed.

Theorem dedup_sort_spec l :
  NoDup (map signature (dedup_sort l))
  /\ StronglySorted (le pos_leb) (dedup_sort l)
  /\ (forall w, In w (dedup_sort l) -> In w l)
  /\ (forall v, In v l -> exists w, In w (dedup_sort l) /\ signature w = signature v).
Proof.
  destruct (dedup_seen_spec l []) as [N [S C]].
  split; [|split; [|split]].
  - eapply Permutation_NoDup; [|exact N]. apply Permutation_map. apply ssort_perm.
  - apply (by_keys_sorted v_line v_pos).
  - intros w Hw. apply (ssort_in pos_leb), S in Hw. tauto.
  - intros v Hv. destruct (C v Hv) as [[]|[w [Hw E]]]. exists w. split; [apply (ssort_in pos_leb); exact Hw|exact E].
Qed.

(* the first occurrence is the one that survives *)
Lemma dedup_first : forall l seen v r, l = v :: r -> ~ In (signature v) seen -> In v (dedup_seen seen l).
Proof.
  intros l seen v r -> Hn. cbn [dedup_seen].
  destruct (existsb (sig_eqb (signature v)) seen) eqn:E; [apply mem_seen in E; contradiction|left; reflexivity].
Qed.

(* two passes of one source violation (same source signature, different templated position) collapse *)
Example loop_passes_collapse :
  dedup_sort [mkViol 1 3 5 7 100; mkViol 2 1 1 0 10; mkViol 1 3 5 7 200; mkViol 1 3 5 8 300]
  = [mkViol 2 1 1 0 10; mkViol 1 3 5 7 100; mkViol 1 3 5 8 300].
Proof. vm_compute. reflexivity. Qed.
