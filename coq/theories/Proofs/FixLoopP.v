(* The fix loop only moves along validated proposals: a reflexive-transitive relation that they respect holds between the input
   tree and the returned one (lint_fix_rel).  Also the limit rollback and the no-fix fixpoint. *)
From SF Require Import Base.Prelude Model.FixLoop.

Section FixLoopP.
  Variables T F : Type.
  Variables (teq : T -> T -> bool) (feq : F -> F -> bool).
  Notation rule := (rule T F).
  Notation st := (st T F).

  (* a reflexive-transitive relation that every VALIDATED proposal respects *)
  Variable R : T -> T -> Prop.
  Hypothesis R_refl : forall t, R t t.
  Hypothesis R_trans : forall a b c, R a b -> R b c -> R a c.

  Definition respects (rules : list rule) : Prop :=
    forall r s f nt, In r rules -> propose T F r s = Some (f, nt, true) -> R s nt.

  Lemma adopt_rel t0 (s : st) f nt v : R t0 (tree T F s) -> (v = true -> R (tree T F s) nt) -> R t0 (tree T F (adopt T F teq s f nt v)).
  Proof.
    intros H Hv. unfold adopt. destruct (teq nt (tree T F s)); [exact H|]. destruct v; cbn [negb]; [|exact H].
    destruct (existsb (teq nt) (prev T F s)); [exact H|]. cbn [tree]. eapply R_trans; [exact H|apply Hv; reflexivity].
  Qed.

  Lemma run_rule_rel t0 rules first (s : st) r : respects rules -> In r rules -> R t0 (tree T F s) -> R t0 (tree T F (run_rule T F teq feq first s r)).
  Proof.
    intros Hr Hin H. unfold run_rule. destruct (negb first && negb (r_fixcompat T F r)); [exact H|].
    destruct (propose T F r (tree T F s)) as [[[f nt] v]|] eqn:Ep; [|exact H].
    destruct (match last T F s with Some l => feq l f | None => false end); [exact H|].
    apply adopt_rel; [exact H|]. intros ->. eapply Hr; [exact Hin|exact Ep].
  Qed.

  Lemma pass_rel t0 all first rules (s : st) : respects all -> incl rules all -> R t0 (tree T F s) -> R t0 (tree T F (pass T F teq feq first rules s)).
  Proof.
    intros Hr Hi H. apply (fold_left_ind (fun s => R t0 (tree T F s))); [exact H|].
    intros s' r Hin. apply (run_rule_rel t0 all); [exact Hr|apply Hi; exact Hin].
  Qed.

  Lemma loop_rel t0 all n : forall first rules (s s' : st), respects all -> incl rules all -> R t0 (tree T F s) ->
    loop T F teq feq n first rules s = Some s' -> R t0 (tree T F s').
  Proof.
    induction n as [|k IH]; intros first rules s s' Hr Hi H E; cbn [loop] in E; [discriminate|].
    pose proof (pass_rel t0 all first rules s Hr Hi H) as Hp.
    destruct (changed T F (pass T F teq feq first rules s)); [eapply IH; eassumption|inversion E; subst; exact Hp].
  Qed.

  Theorem lint_fix_rel limit rules t0 : respects rules -> R t0 (fst (lint_fix T F teq feq limit rules t0)).
  Proof.
    intros Hr. unfold lint_fix.
    destruct (loop T F teq feq limit true rules _) as [s1|] eqn:E1; [|apply R_refl].
    assert (H1 : R t0 (tree T F s1)).
    { eapply (loop_rel t0 rules); [exact Hr|apply incl_refl| |exact E1]. apply R_refl. }
    destruct (loop T F teq feq 2 false (filter (r_post T F) rules) s1) as [s2|] eqn:E2; [|apply R_refl].
    cbn [fst]. eapply (loop_rel t0 rules); [exact Hr|apply incl_filter|exact H1|exact E2].
  Qed.

  (* loop limit: the original tree comes back *)
  Theorem limit_rollback limit rules t0 : snd (lint_fix T F teq feq limit rules t0) = true -> fst (lint_fix T F teq feq limit rules t0) = t0.
  Proof.
    unfold lint_fix. destruct (loop T F teq feq limit true rules _) as [s1|]; [|reflexivity].
    destruct (loop T F teq feq 2 false _ s1); [discriminate|reflexivity].
  Qed.

  Lemma pass_nofix first rules (s : st) :
    (forall r, In r rules -> propose T F r (tree T F s) = None) ->
    pass T F teq feq first rules s = {| tree := tree T F s; last := last T F s; prev := prev T F s; changed := false |}.
  Proof.
    intros H. set (s0 := Build_st _ _ _ _ _ _). apply (fold_left_ind (fun s' => s' = s0)); [reflexivity|].
    intros s' r Hin ->. unfold run_rule. destruct (negb first && _); [reflexivity|]. cbn [tree s0]. rewrite (H r Hin). reflexivity.
  Qed.

  Theorem no_fix_identity limit rules t0 :
    0 < limit -> (forall r, In r rules -> propose T F r t0 = None) -> lint_fix T F teq feq limit rules t0 = (t0, false).
  Proof using R R_refl R_trans. (* keeps the section's relation in the statement, though the proof does not use it: C17_no_fix_identity passes a trivial one *)
    intros Hl H. unfold lint_fix. destruct limit as [|k]; [inversion Hl|]. cbn [loop].
    rewrite pass_nofix by exact H. cbn [changed tree last prev].
    rewrite pass_nofix by (cbn [tree]; intros r Hr; apply H, (incl_filter (r_post T F) rules), Hr). reflexivity.
  Qed.
End FixLoopP.
