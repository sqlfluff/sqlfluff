(* Lemmas about Model/Config.v (C27).  One merge is described by lookup at a single key (join, merge_dget_in/other,
   merge_err_in); what a combined dict shows at a path (kind_at) then follows by induction on the path, and nested_combine
   of a list is one merge of its concatenation.  The loader stages are tied to the specification's layer lists by `shows`,
   the cached run to the cache-free one by `refines`. *)
From SF Require Import Base.Prelude Model.Config.

Lemma path_eqb_eq a b : path_eqb a b = true <-> a = b.
Proof. exact (list_eqb_eq text_eqb text_eqb_eq a b). Qed.

Lemma path_eqb_refl p : path_eqb p p = true.
Proof. apply path_eqb_eq. reflexivity. Qed.

Section WithValues.
Variable V : Type.

Notation cfg := (cfg V).
Notation dict := (dict V).
Notation dget := (dget V).
Notation dset := (dset V).
Notation merge := (merge V).
Notation nested_combine := (nested_combine V).
Notation lookup := (lookup V).
Notation kind_at := (kind_at V).
Notation kind_of := (kind_of V).

(* well-formed = what a Python dict is: distinct keys at every level *)
Inductive wf : cfg -> Prop :=
| wf_leaf v : wf (Leaf v)
| wf_dict l : NoDup (map fst l) -> Forall (fun kx => wf (snd kx)) l -> wf (Dict l).

Definition wfd (d : dict) : Prop := wf (Dict d).

Lemma dget_dset_same k x d : dget k (dset k x d) = Some x.
Proof.
  induction d as [|[k' y] d IH]; cbn [Config.dset Config.dget].
  - rewrite text_eqb_refl. reflexivity.
  - destruct (text_eqb k k') eqn:E; cbn [Config.dget]; rewrite E; [reflexivity | exact IH].
Qed.

Lemma dget_dset_other k k' x d : k <> k' -> dget k' (dset k x d) = dget k' d.
Proof.
  intros Hne. induction d as [|[k2 y] d IH]; cbn [Config.dset Config.dget].
  - destruct (text_eqb_spec k' k); [congruence | reflexivity].
  - destruct (text_eqb_spec k k2) as [->|]; cbn [Config.dget]; [|rewrite IH; reflexivity].
    destruct (text_eqb_spec k' k2); [congruence | reflexivity].
Qed.

Lemma dget_none_notin k d : dget k d = None <-> ~ In k (map fst d).
Proof.
  induction d as [|[k' y] d IH]; cbn [Config.dget map fst In]; [tauto|].
  destruct (text_eqb_spec k k') as [->|Hne]; [split; [discriminate | tauto] | rewrite IH; intuition congruence].
Qed.

Lemma dget_in k d x : dget k d = Some x -> In (k, x) d.
Proof.
  induction d as [|[k' y] d IH]; cbn [Config.dget]; [discriminate|].
  destruct (text_eqb_spec k k') as [->|]; [intros H; inversion H; left; reflexivity | right; auto].
Qed.

Lemma nodup_keys_cons k (x : cfg) d : NoDup (map fst ((k, x) :: d)) <-> dget k d = None /\ NoDup (map fst d).
Proof. cbn [map fst]. rewrite NoDup_cons_iff, dget_none_notin. reflexivity. Qed.

(* d[k] = x on a new key appends: dicts keep insertion order *)
Lemma dset_new k x d : dget k d = None -> dset k x d = d ++ [(k, x)].
Proof.
  induction d as [|[k' y] d IH]; cbn [Config.dset Config.dget app]; [reflexivity|].
  destruct (text_eqb k k'); [discriminate | intros H; rewrite IH by exact H; reflexivity].
Qed.

(* what nested_combine leaves at a key that held o and is given x *)
Definition join (o : option cfg) (x : cfg) : res cfg :=
  match o, x with
  | Some (Dict rk), Dict xs => do rk' <- merge rk xs; Ok (Dict rk')
  | Some (Dict _), Leaf _ => Err EValue
  | _, _ => Ok x
  end.

Lemma merge_nil r : merge r [] = Ok r.
Proof. reflexivity. Qed.

Lemma merge_cons r k x l : merge r ((k, x) :: l) = do y <- join (dget k r) x; merge (dset k y r) l.
Proof.
  unfold Config.merge at 1. cbn [merge_cfg]. unfold join. destruct (dget k r) as [[v|rk]|]; try reflexivity.
  destruct x as [v|xs]; [reflexivity|]. fold (merge rk xs). destruct (merge rk xs); reflexivity.
Qed.

Lemma merge_app : forall l1 l2 r, merge r (l1 ++ l2) = do r1 <- merge r l1; merge r1 l2.
Proof.
  induction l1 as [|[k x] l1 IH]; intros l2 r; [reflexivity|]. cbn [app]. rewrite !merge_cons.
  destruct (join (dget k r) x) as [y|e]; cbn [bind]; [apply IH | reflexivity].
Qed.

(* The lookup semantics of one merge: a key the merged-in dict does not have is untouched, a key it has holds the join. *)
Lemma merge_dget_other k : forall l r R, dget k l = None -> merge r l = Ok R -> dget k R = dget k r.
Proof.
  induction l as [|[k2 x2] l IH]; intros r R Hk H.
  - inversion H; reflexivity.
  - cbn [Config.dget] in Hk. rewrite merge_cons in H.
    destruct (text_eqb_spec k k2) as [|Hne]; [discriminate|]. destruct (join (dget k2 r) x2) as [y|]; [|discriminate].
    rewrite (IH _ _ Hk H). apply dget_dset_other. congruence.
Qed.

Lemma merge_dget_in k x : forall d r R, NoDup (map fst d) -> dget k d = Some x -> merge r d = Ok R ->
  exists y, join (dget k r) x = Ok y /\ dget k R = Some y.
Proof.
  induction d as [|[k1 x1] d IH]; intros r R Hn Hk H; [discriminate|].
  apply nodup_keys_cons in Hn as [Hk1 Hn'].
  cbn [Config.dget] in Hk. rewrite merge_cons in H.
  apply bind_ok in H as (y1 & Ej & H).
  destruct (text_eqb_spec k k1) as [->|Hne].
  - inversion Hk; subst x1. exists y1. split; [exact Ej|]. rewrite (merge_dget_other _ _ _ _ Hk1 H). apply dget_dset_same.
  - rewrite <- (dget_dset_other k1 k y1 r) by congruence. exact (IH _ _ Hn' Hk H).
Qed.

(* ... and an exception of the merge is the exception of the join at one of its keys *)
Lemma merge_err_in : forall d r e, NoDup (map fst d) -> merge r d = Err e ->
  exists k x, dget k d = Some x /\ join (dget k r) x = Err e.
Proof.
  induction d as [|[k1 x1] d IH]; intros r e Hn H; [discriminate|].
  apply nodup_keys_cons in Hn as [Hk1 Hn']. rewrite merge_cons in H.
  destruct (join (dget k1 r) x1) as [y1|e1] eqn:Ej; cbn [bind] in H.
  - destruct (IH _ _ Hn' H) as (k & x & Hk & Hj). exists k, x. cbn [Config.dget].
    destruct (text_eqb_spec k k1) as [->|Hne].
    + congruence.
    + rewrite dget_dset_other in Hj by congruence. split; assumption.
  - exists k1, x1. cbn [Config.dget]. rewrite text_eqb_refl. inversion H; subst. split; [reflexivity | exact Ej].
Qed.

(* kind_in o p: what is seen at path p below an entry o; the entry itself when p = [] *)
Definition kind_in (o : option cfg) (p : list key) : option (option V) :=
  match p, o with
  | [], _ => option_map kind_of o
  | _, Some (Dict s) => kind_at p s
  | _, _ => None
  end.

Lemma kind_at_cons k p d : kind_at (k :: p) d = kind_in (dget k d) p.
Proof. unfold Config.kind_at. destruct p; cbn [Config.lookup kind_in]; [reflexivity|]. destruct (dget k d) as [[|]|]; reflexivity. Qed.

Lemma kind_in_none p : kind_in None p = None.
Proof. destruct p; reflexivity. Qed.

Lemma kind_at_nil d : kind_at [] d = None.
Proof. reflexivity. Qed.

Lemma kind_at_empty p : kind_at p [] = None.
Proof. destruct p; [reflexivity|]. rewrite kind_at_cons. apply kind_in_none. Qed.

Definition over {A} (a b : option A) : option A := match a with Some k => Some k | None => b end.

Lemma over_none_r {A} (a : option A) : over a None = a.
Proof. destruct a; reflexivity. Qed.

Lemma over_assoc {A} (a b c : option A) : over a (over b c) = over (over a b) c.
Proof. destruct a; reflexivity. Qed.

Lemma wfd_dget k d x : wfd d -> dget k d = Some x -> wf x.
Proof.
  intros Hd. inversion Hd as [|? _ Hf]; subst. clear Hd. induction Hf as [|[k' y] d Hy _ IH]; cbn [Config.dget]; [discriminate|].
  destruct (text_eqb k k'); [intros H; inversion H; subst; exact Hy | exact IH].
Qed.

Lemma wfd_nodup d : wfd d -> NoDup (map fst d).
Proof. intros H. inversion H; assumption. Qed.

(* What a join shows: the new entry wins wherever it has anything. *)
Lemma join_kind : forall p o x y, wf x -> join o x = Ok y -> kind_in (Some y) p = over (kind_in (Some x) p) (kind_in o p).
Proof.
  induction p as [|k p IH]; intros o x y Hw H; unfold join in H.
  - destruct o as [[|rk]|], x as [|xs]; try (inversion H; reflexivity).
    destruct (merge rk xs); inversion H; reflexivity.
  - destruct o as [[v|rk]|]; [| |rewrite kind_in_none]; try (inversion H; apply eq_sym, over_none_r).
    destruct x as [|xs]; [discriminate|]. destruct (merge rk xs) as [R|] eqn:Em; inversion H; subst y. cbn [kind_in].
    rewrite !kind_at_cons. destruct (dget k xs) as [x|] eqn:Ex.
    + destruct (merge_dget_in k x xs rk R (wfd_nodup _ Hw) Ex Em) as (y & Hj & ->).
      exact (IH _ _ _ (wfd_dget _ _ _ Hw Ex) Hj).
    + rewrite (merge_dget_other _ _ _ _ Ex Em), kind_in_none. reflexivity.
Qed.

Lemma merge_kind r d R p : wfd d -> merge r d = Ok R -> kind_at p R = over (kind_at p d) (kind_at p r).
Proof.
  intros Hw H. destruct p as [|k p]; [reflexivity|].
  apply (join_kind (k :: p) (Some (Dict r)) (Dict d) (Dict R) Hw). cbn [join]. rewrite H. reflexivity.
Qed.

Lemma cfg_ind2 (P : cfg -> Prop) :
  (forall v, P (Leaf v)) ->
  (forall l, Forall (fun kx => P (snd kx)) l -> P (Dict l)) ->
  forall c, P c.
Proof.
  intros HL HD. fix IH 1. intros [v|l]; [apply HL|]. apply HD.
  induction l as [|[k x] l IHl]; constructor; [apply IH | exact IHl].
Qed.

Lemma dict_ind (P : dict -> Prop) :
  P [] -> (forall k x l, (forall xs, x = Dict xs -> P xs) -> P l -> P ((k, x) :: l)) -> forall d, P d.
Proof.
  intros H0 HS d. enough (H : forall c d, c = Dict d -> P d) by exact (H _ d eq_refl). clear d.
  induction c as [|l IH] using cfg_ind2; intros d E; inversion E; subst d; clear E.
  induction IH as [|[k x] l Hx _ IHl]; [exact H0|]. apply HS; [intros xs E; exact (Hx xs E) | exact IHl].
Qed.

(* the only exception nested_combine raises is its ValueError *)
Lemma merge_err : forall d r e, merge r d = Err e -> e = EValue.
Proof.
  induction d as [|k x l IHx IHl] using dict_ind; intros r e H; [discriminate|].
  rewrite merge_cons in H. destruct (join (dget k r) x) as [y|e'] eqn:Ej; cbn [bind] in H; [exact (IHl _ _ H)|].
  inversion H; subst e'. unfold join in Ej. destruct (dget k r) as [[|rk]|]; try discriminate.
  destruct x as [|xs]; [inversion Ej; reflexivity|].
  destruct (merge rk xs) eqn:Em; [discriminate|]. inversion Ej; subst. exact (IHx xs eq_refl _ _ Em).
Qed.

(* a conflict: the merged-in dict has a *value* where the accumulated dict has a *section* *)
Definition conflict (r d : dict) : Prop := exists p v, kind_at p d = Some (Some v) /\ kind_at p r = Some None.

(* the same one level up, where the empty path is the entry itself *)
Definition jconflict (o : option cfg) (x : cfg) : Prop :=
  exists p v, kind_in (Some x) p = Some (Some v) /\ kind_in o p = Some None.

Lemma join_conflict : forall x, wf x -> forall o, join o x = Err EValue <-> jconflict o x.
Proof.
  intros x Hw o. split.
  - revert Hw o. induction x as [v|xs IH] using cfg_ind2; intros Hw o H; unfold join in H;
      destruct o as [[|rk]|]; try discriminate.
    + exists [], v. split; reflexivity.
    + destruct (merge rk xs) eqn:Em; inversion H; subst.
      destruct (merge_err_in _ _ _ (wfd_nodup _ Hw) Em) as (k & x & Hk & Hj).
      rewrite Forall_forall in IH. apply (IH _ (dget_in _ _ _ Hk) (wfd_dget _ _ _ Hw Hk)) in Hj as (p & v & H1 & H2).
      exists (k :: p), v. cbn [kind_in]. rewrite !kind_at_cons, Hk. split; assumption.
  - intros (p & v & H1 & H2). revert x Hw o H1 H2. induction p as [|k p IH]; intros x Hw o H1 H2.
    + destruct x; [|discriminate]. destruct o as [[|]|]; try discriminate. reflexivity.
    + destruct x as [|xs]; [discriminate|]. destruct o as [[|rk]|]; try discriminate. cbn [kind_in] in H1, H2.
      rewrite kind_at_cons in H1, H2. destruct (dget k xs) as [x|] eqn:Ex; [|rewrite kind_in_none in H1; discriminate].
      apply (IH _ (wfd_dget _ _ _ Hw Ex)) in H2; [|exact H1]. cbn [join]. destruct (merge rk xs) as [R|e] eqn:Em; cbn [bind].
      * destruct (merge_dget_in _ _ _ _ _ (wfd_nodup _ Hw) Ex Em) as (y & Hj & _). congruence.
      * rewrite (merge_err _ _ _ Em). reflexivity.
Qed.

Lemma merge_conflict r d : wfd d -> (merge r d = Err EValue <-> conflict r d).
Proof.
  intros Hw. transitivity (jconflict (Some (Dict r)) (Dict d)).
  - rewrite <- (join_conflict _ Hw). cbn [join]. destruct (merge r d); cbn [bind]; split; congruence.
  - split; intros (p & v & H); exists p, v; (destruct p; [destruct H; discriminate | exact H]).
Qed.

Lemma merge_ok_iff r d : wfd d -> ((exists R, merge r d = Ok R) <-> ~ conflict r d).
Proof.
  intros Hw. rewrite <- (merge_conflict r d Hw). destruct (merge r d) as [R|e] eqn:E.
  - split; [discriminate | exists R; reflexivity].
  - rewrite (merge_err _ _ _ E). split; [intros [R HR]; discriminate | congruence].
Qed.

Lemma wfd_nil : wfd [].
Proof. constructor; constructor. Qed.

Lemma dset_keys_nodup k x d : NoDup (map fst d) -> NoDup (map fst (dset k x d)).
Proof.
  induction d as [|[k' y] d IH]; cbn [Config.dset]; intros H.
  - apply nodup_keys_cons. split; [reflexivity | constructor].
  - apply nodup_keys_cons in H as [Hk' Hd]. destruct (text_eqb_spec k k') as [->|Hne]; apply nodup_keys_cons; split; auto.
    rewrite dget_dset_other; assumption.
Qed.

Lemma wfd_dset k x d : wfd d -> wf x -> wfd (dset k x d).
Proof.
  intros Hd Hx. inversion Hd as [|? Hn Hf]; subst. constructor; [apply dset_keys_nodup; exact Hn|].
  clear Hn Hd. induction Hf as [|[k' y] d Hy Hf IH]; cbn [Config.dset]; [|destruct (text_eqb k k')]; constructor; auto.
Qed.

(* the merged-in list need not have distinct keys here: `nested_combine ds` is one merge of `concat ds` *)
Definition wfl (l : dict) : Prop := Forall (fun kx => wf (snd kx)) l.

Lemma wfd_wfl d : wfd d -> wfl d.
Proof. intros H. inversion H; assumption. Qed.

Lemma merge_wf : forall d r R, wfd r -> wfl d -> merge r d = Ok R -> wfd R.
Proof.
  induction d as [|k x l IHx IHl] using dict_ind; intros r R Hr Hd H.
  - inversion H; subst; exact Hr.
  - inversion Hd as [|? ? Hx Hl]. cbn [snd] in Hx. rewrite merge_cons in H.
    destruct (join (dget k r) x) as [y|] eqn:Ej; [|discriminate]. apply (IHl (dset k y r) R); [apply wfd_dset; [exact Hr|] | exact Hl | exact H].
    unfold join in Ej. destruct (dget k r) as [[|rk]|] eqn:Er; try (inversion Ej; subst; exact Hx).
    destruct x as [|xs]; [discriminate|]. destruct (merge rk xs) eqn:Em; inversion Ej; subst.
    exact (IHx _ eq_refl _ _ (wfd_dget _ _ _ Hr Er) (wfd_wfl _ Hx) Em).
Qed.

Lemma merge_nodup : forall d r R, NoDup (map fst r) -> merge r d = Ok R -> NoDup (map fst R).
Proof.
  induction d as [|[k x] l IH]; intros r R Hr H.
  - inversion H; subst; exact Hr.
  - rewrite merge_cons in H. destruct (join (dget k r) x) as [y|]; [|discriminate].
    exact (IH _ _ (dset_keys_nodup k y r Hr) H).
Qed.

(* `nested_combine(d)` copies d *)
Lemma merge_into_empty d : NoDup (map fst d) -> merge [] d = Ok d.
Proof.
  induction d as [|[k x] d IH] using rev_ind; intros H; [reflexivity|].
  rewrite map_app in H. cbn [map fst] in H. apply NoDup_remove in H as [H Hk]. rewrite app_nil_r in H, Hk. apply dget_none_notin in Hk.
  rewrite merge_app, (IH H). cbn [bind]. rewrite merge_cons, Hk. cbn [join bind]. rewrite dset_new by exact Hk. reflexivity.
Qed.

Lemma combine_fold ds : forall acc, fold_left (fun acc d => do r <- acc; merge r d) ds acc = do r <- acc; merge r (concat ds).
Proof.
  induction ds as [|d ds IH]; intros [r|e]; cbn [fold_left concat bind]; try reflexivity; rewrite IH; [|reflexivity].
  rewrite merge_app. reflexivity.
Qed.

Lemma nested_combine_eq ds : nested_combine ds = merge [] (concat ds).
Proof. apply combine_fold. Qed.

Lemma wfl_concat ds : Forall wfd ds -> wfl (concat ds).
Proof. induction 1 as [|d ds Hd _ IH]; [constructor|]. apply Forall_app. split; [apply wfd_wfl; exact Hd | exact IH]. Qed.

Lemma nested_combine_wf ds R : Forall wfd ds -> nested_combine ds = Ok R -> wfd R.
Proof. rewrite nested_combine_eq. intros Hds. apply merge_wf; [apply wfd_nil | apply wfl_concat; exact Hds]. Qed.

Notation last_some := (@last_some (option V)).

Lemma last_some_cons {A} (o : option A) l : Config.last_some (o :: l) = over (Config.last_some l) o.
Proof. reflexivity. Qed.

Lemma last_some_app {A} (l1 l2 : list (option A)) :
  Config.last_some (l1 ++ l2) = over (Config.last_some l2) (Config.last_some l1).
Proof.
  induction l1 as [|o l1 IH]; cbn [app Config.last_some]; [symmetry; apply over_none_r|].
  rewrite IH. destruct (Config.last_some l2); reflexivity.
Qed.

(* combine_rightmost, from any accumulated dict *)
Lemma combine_kind : forall ds r R p, Forall wfd ds -> merge r (concat ds) = Ok R ->
  kind_at p R = over (last_some (map (kind_at p) ds)) (kind_at p r).
Proof.
  induction ds as [|d ds IH]; intros r R p Hds H.
  - inversion H. reflexivity.
  - inversion Hds. cbn [concat] in H. rewrite merge_app in H. destruct (merge r d) as [r1|] eqn:Em; [|discriminate].
    rewrite (IH r1 R p), (merge_kind r d r1 p) by assumption. apply over_assoc.
Qed.

Theorem combine_rightmost ds R p : Forall wfd ds -> nested_combine ds = Ok R ->
  kind_at p R = last_some (map (kind_at p) ds).
Proof.
  rewrite nested_combine_eq. intros Hds H. rewrite (combine_kind ds [] R p Hds H), kind_at_empty. apply over_none_r.
Qed.

(* when does nested_combine raise: exactly when some dict sets a value at a path that the dicts before it, combined, hold
   as a section.  From any accumulated dict, as combine_kind. *)
Lemma combine_error_from : forall ds r, Forall wfd ds ->
  (merge r (concat ds) = Err EValue <->
   exists ds1 d ds2 p v, ds = ds1 ++ d :: ds2 /\ kind_at p d = Some (Some v) /\
                         over (last_some (map (kind_at p) ds1)) (kind_at p r) = Some None).
Proof.
  induction ds as [|d ds IH]; intros r Hds.
  - split; [discriminate|]. intros ([] & ? & ? & ? & ? & ? & _); discriminate.
  - inversion Hds as [|? ? Hd Hds']. cbn [concat]. rewrite merge_app.
    destruct (merge r d) as [r1|e] eqn:Em; cbn [bind].
    + rewrite (IH r1 Hds'). split.
      * intros (ds1 & d' & ds2 & p & v & -> & H2 & H3). exists (d :: ds1), d', ds2, p, v.
        rewrite (merge_kind r d r1 p Hd Em), over_assoc in H3. auto.
      * intros ([|d0 ds1] & d' & ds2 & p & v & H1 & H2 & H3); inversion H1; subst.
        -- assert (Hc : conflict r d') by (exists p, v; auto). apply merge_conflict in Hc; [congruence | exact Hd].
        -- exists ds1, d', ds2, p, v. rewrite (merge_kind r d0 r1 p Hd Em), over_assoc. auto.
    + pose proof (merge_err _ _ _ Em); subst e. split; [|reflexivity]. intros _.
      apply merge_conflict in Em as (p & v & H1 & H2); [|exact Hd]. exists [], d, ds, p, v. auto.
Qed.

Lemma dset_dset_same k y y0 d : dset k y (dset k y0 d) = dset k y d.
Proof.
  induction d as [|[k' w] d IH]; cbn [Config.dset].
  - rewrite text_eqb_refl. reflexivity.
  - destruct (text_eqb k k') eqn:E; cbn [Config.dset]; rewrite E; [reflexivity | rewrite IH; reflexivity].
Qed.

Lemma dset_comm k k2 y z d w : k <> k2 -> dget k d = Some w -> dset k2 z (dset k y d) = dset k y (dset k2 z d).
Proof.
  intros Hne. induction d as [|[k' w'] d IH]; cbn [Config.dget Config.dset]; [discriminate|].
  destruct (text_eqb_spec k k') as [->|H1]; intros Hk; cbn [Config.dset].
  - destruct (text_eqb_spec k2 k'); [congruence|]. cbn [Config.dset]. rewrite text_eqb_refl. reflexivity.
  - destruct (text_eqb_spec k2 k') as [->|H2]; cbn [Config.dset]; (destruct (text_eqb_spec k k'); [congruence|]);
      [|rewrite IH by exact Hk]; reflexivity.
Qed.

(* frame: a key that is already present and that l does not mention can be rewritten before or after merging l *)
Lemma merge_frame k y : forall l X R w, dget k X = Some w -> dget k l = None -> merge X l = Ok R ->
  merge (dset k y X) l = Ok (dset k y R).
Proof.
  induction l as [|[k2 x2] l IH]; intros X R w Hin Hnk H.
  - inversion H; reflexivity.
  - cbn [Config.dget] in Hnk. destruct (text_eqb_spec k k2) as [|E]; [discriminate|].
    rewrite merge_cons in *. rewrite dget_dset_other by exact E.
    destruct (join (dget k2 X) x2) as [z|e]; [|discriminate]. cbn [bind] in *.
    rewrite (dset_comm k k2 y z X w E Hin). apply (IH _ _ w); try assumption. rewrite dget_dset_other by congruence. exact Hin.
Qed.

(* update: rewriting the entry at a key of the merged-in dict changes the result at that key only, to the new join *)
Lemma merge_update k xnew : forall A r R xold, NoDup (map fst A) -> merge r A = Ok R -> dget k A = Some xold ->
  merge r (dset k xnew A) = do y <- join (dget k r) xnew; Ok (dset k y R).
Proof.
  induction A as [|[k1 x1] A IH]; intros r R xold Hn H Hk; [discriminate|].
  apply nodup_keys_cons in Hn as [Hk1 Hn'].
  rewrite merge_cons in H. cbn [Config.dget] in Hk. cbn [Config.dset].
  apply bind_ok in H as (y1 & Ej & H).
  destruct (text_eqb_spec k k1) as [->|E]; rewrite merge_cons.
  - destruct (join (dget k1 r) xnew) as [y|e]; [|reflexivity]. cbn [bind].
    rewrite <- (dset_dset_same k1 y y1 r). apply (merge_frame _ _ _ _ _ y1); [apply dget_dset_same | exact Hk1 | exact H].
  - rewrite Ej. cbn [bind]. rewrite (IH _ _ _ Hn' H Hk), dget_dset_other by congruence. reflexivity.
Qed.

(* associativity at one key, given associativity below it *)
Lemma join_assoc o xa x ya y :
  (forall xs, x = Dict xs -> forall r a r1 r2, wfd a -> wfl xs -> merge r a = Ok r1 -> merge r1 xs = Ok r2 ->
                             exists ab, merge a xs = Ok ab /\ merge r ab = Ok r2) ->
  wf xa -> wf x -> join o xa = Ok ya -> join (Some ya) x = Ok y ->
  exists z, join (Some xa) x = Ok z /\ join o z = Ok y.
Proof.
  intros IH Hxa Hx Ha Hy. unfold join in *.
  destruct xa as [va|as_].
  - exists x. destruct o as [[|rr]|]; inversion Ha; subst ya; auto.
  - destruct x as [|xs]; [destruct o as [[|rr]|]; [| destruct (merge rr as_) |]; inversion Ha; subst ya; discriminate|].
    destruct o as [[|rr]|]; [| destruct (merge rr as_) as [m1|] eqn:Em1 |]; inversion Ha; subst ya.
    2:{ destruct (merge m1 xs) as [m2|] eqn:Em2; inversion Hy.
        destruct (IH xs eq_refl rr as_ m1 m2 Hxa (wfd_wfl _ Hx) Em1 Em2) as (axs & Hax & Hrax).
        exists (Dict axs). rewrite Hax. cbn [bind]. rewrite Hrax. auto. }
    all: destruct (merge as_ xs) as [m2|]; inversion Hy; exists (Dict m2); auto.
Qed.

Lemma merge_assoc : forall b r a r1 r2, wfd a -> wfl b -> merge r a = Ok r1 -> merge r1 b = Ok r2 ->
  exists ab, merge a b = Ok ab /\ merge r ab = Ok r2.
Proof.
  induction b as [|k x l IHx IHl] using dict_ind; intros r a r1 r2 Hwa Hwb Ha Hb.
  - inversion Hb; subst. exists a. split; [reflexivity | exact Ha].
  - inversion Hwb as [|? ? Hwx Hwl]. cbn [snd] in Hwx.
    rewrite merge_cons in Hb. apply bind_ok in Hb as (y & Ej & Hb).
    (* the entry (k, x) moves from b into a: that changes a, and hence merge r a, at k only *)
    assert (SE : exists z, join (dget k a) x = Ok z /\ merge r (dset k z a) = Ok (dset k y r1)).
    { destruct (dget k a) as [xa|] eqn:Eka.
      - destruct (merge_dget_in k xa a r r1 (wfd_nodup _ Hwa) Eka Ha) as (ya & Hj & Hr1). rewrite Hr1 in Ej.
        destruct (join_assoc _ _ _ _ _ IHx (wfd_dget _ _ _ Hwa Eka) Hwx Hj Ej) as (z & Hz & Hjz).
        exists z. split; [exact Hz|].
        rewrite (merge_update k z a r r1 xa (wfd_nodup _ Hwa) Ha Eka), Hjz. reflexivity.
      - exists x. split; [reflexivity|].
        rewrite (dset_new _ _ _ Eka), merge_app, Ha. cbn [bind]. rewrite merge_cons, Ej. reflexivity. }
    destruct SE as (z & Hz & Hm).
    assert (Hk : merge a [(k, x)] = Ok (dset k z a)) by (rewrite merge_cons, Hz; reflexivity).
    destruct (IHl r (dset k z a) (dset k y r1) r2 (merge_wf _ _ _ Hwa (Forall_cons (k, x) Hwx (Forall_nil _)) Hk) Hwl Hm Hb)
      as (ab & Hab & Hrab).
    exists ab. split; [|exact Hrab]. rewrite merge_cons, Hz. exact Hab.
Qed.

(* a stage in the middle, as load_config_up_to_path (one dict per directory) and FluffConfig.__init__ do: when the flat
   combination succeeds, combining a middle segment first gives the very same dict (same values, same key order).  The
   converse fails (Properties/C27.v has the example): a stage can succeed where the flat combination raises. *)
Theorem combine_assoc l1 l2 l3 R : Forall wfd l2 -> nested_combine (l1 ++ l2 ++ l3) = Ok R ->
  exists m, nested_combine l2 = Ok m /\ nested_combine (l1 ++ m :: l3) = Ok R.
Proof.
  intros Hw H. rewrite nested_combine_eq, !concat_app, merge_app in H.
  apply bind_ok in H as (r & E1 & H). rewrite merge_app in H. apply bind_ok in H as (r' & E2 & H).
  destruct (merge_assoc (concat l2) r [] r r' wfd_nil (wfl_concat l2 Hw) eq_refl E2) as (m & Hm & Hrm).
  exists m. rewrite !nested_combine_eq, concat_app, merge_app, E1. cbn [concat bind]. rewrite merge_app, Hrm. auto.
Qed.

Notation set_value := (set_value V).
Notation inline_effect := (inline_effect V).
Notation inline_over := (inline_over V).

(* stated below an entry, where the empty path is the entry itself, so that the induction needs no side condition *)
Lemma set_value_kind_in : forall q v d d' p, set_value q v d = Ok d' ->
  kind_in (Some (Dict d')) p = inline_effect p (q, v) (kind_in (Some (Dict d)) p).
Proof.
  induction q as [|k q IH]; intros v d d' p H; [discriminate|].
  destruct p as [|k0 p]; [reflexivity|]. cbn [kind_in]. rewrite !kind_at_cons. unfold Config.inline_effect. cbn [is_prefix].
  assert (Hd : exists y, d' = dset k y d /\ kind_in (Some y) p = inline_effect p (q, v) (kind_in (dget k d) p)).
  { cbn [Config.set_value] in H. destruct q as [|k1 q].
    - inversion H. eexists. split; [reflexivity|]. destruct p; reflexivity.
    - destruct (dget k d) as [[|s0]|]; [discriminate| |]; (destruct (set_value (k1 :: q) v _) as [s|] eqn:Es; [|discriminate]);
        inversion H; eexists; (split; [reflexivity|]); rewrite (IH _ _ _ p Es); [reflexivity|].
      destruct p; [reflexivity|]. cbn [kind_in]. rewrite kind_at_empty. reflexivity. }
  destruct Hd as (y & -> & Hy). destruct (text_eqb_spec k k0) as [->|Hne].
  - rewrite text_eqb_refl, dget_dset_same. exact Hy.
  - destruct (text_eqb_spec k0 k); [congruence|]. rewrite dget_dset_other by exact Hne. reflexivity.
Qed.

Lemma set_value_kind q v d d' p : set_value q v d = Ok d' -> p <> [] ->
  kind_at p d' = inline_effect p (q, v) (kind_at p d).
Proof. intros H Hp. destruct p; [congruence|]. exact (set_value_kind_in q v d d' (_ :: _) H). Qed.

Lemma fold_res_bind {A B} (f : A -> B -> res A) l r :
  fold_left (fun acc b => do a <- acc; f a b) l r = do a <- r; fold_left (fun acc b => do a <- acc; f a b) l (Ok a).
Proof. destruct r; [reflexivity|]. induction l as [|b l IH]; [reflexivity | exact IH]. Qed.

Lemma fold_res_cons {A B} (f : A -> B -> res A) b l a r :
  fold_left (fun acc b => do a <- acc; f a b) (b :: l) (Ok a) = Ok r ->
  exists a', f a b = Ok a' /\ fold_left (fun acc b => do a <- acc; f a b) l (Ok a') = Ok r.
Proof. cbn [fold_left bind]. rewrite fold_res_bind. apply bind_ok. Qed.

Section WithCoerce.
Variable coerce : text -> V.

Lemma parse_inline_nonempty line p raw : parse_inline line = Ok (Some (p, raw)) -> p <> [].
Proof.
  unfold parse_inline. destruct (negb _); [discriminate|].
  destruct (split_colon_separated_string _) as [[[|k [|k2 ks]] v]|]; intros H; inversion H; discriminate.
Qed.

Lemma process_raw_kind raw : forall d E p, p <> [] -> process_raw_file_for_config V coerce d raw = Ok E ->
  kind_at p E = inline_over p (inline_settings V coerce raw) (kind_at p d).
Proof.
  unfold process_raw_file_for_config, inline_settings, Config.inline_over.
  induction (splitlines raw) as [|line lines IH]; intros d E p Hp H.
  - inversion H; reflexivity.
  - apply fold_res_cons in H as (d1 & Hl & H). cbn [flat_map]. rewrite fold_left_app, (IH d1 E p Hp H). f_equal.
    destruct (is_inline_line line); [|inversion Hl; reflexivity]. unfold process_inline_config in Hl.
    destruct (parse_inline line) as [[[q rawv]|]|]; cbn [bind] in Hl; [|inversion Hl; reflexivity | discriminate].
    exact (set_value_kind q _ d d1 p Hl Hp).
Qed.

Lemma rec_insert_wf : forall ks v d d', wfd d -> rec_insert V ks v d = Ok d' -> wfd d'.
Proof.
  induction ks as [|k rest IH]; intros v d d' Hd H; [discriminate|]. cbn [rec_insert] in H.
  destruct rest as [|k1 rest'].
  - inversion H. apply wfd_dset; [exact Hd | constructor].
  - destruct (dget k d) as [[vv|s0]|] eqn:Ek; [discriminate| |];
      (destruct (rec_insert V (k1 :: rest') v _) as [s|] eqn:Es; [|discriminate]); inversion H;
      (apply wfd_dset; [exact Hd|]); eapply IH; try exact Es; [eapply wfd_dget; eassumption | apply wfd_nil].
Qed.

Lemma records_wf recs d : records_to_nested_dict V recs = Ok d -> wfd d.
Proof.
  revert d. apply (fold_left_ind (fun acc => forall d, acc = Ok d -> wfd d)).
  - intros d [= <-]. exact wfd_nil.
  - intros acc [ks v] _ IH d H. apply bind_ok in H as (d0 & -> & H). exact (rec_insert_wf ks v d0 d (IH d0 eq_refl) H).
Qed.

Lemma load_toml_wf d d' : wfd d -> load_toml V d = Ok d' -> wfd d'.
Proof.
  unfold load_toml. intros Hd. destruct (dget rules_key d) as [[v|rs]|]; [discriminate| |intros H; inversion H; subst; exact Hd].
  destruct (records_to_nested_dict V _) as [rs'|] eqn:E; [|discriminate]. cbn [bind]. intros H; inversion H.
  apply wfd_dset; [exact Hd|]. eapply records_wf. exact E.
Qed.

Definition content_wf (c : fcontent V) : Prop := match c with FToml d => wfd d | FIni _ => True end.
Definition fs_wf (f : fsys V) : Prop :=
  Forall (fun pf => Forall (fun nc => content_wf (snd nc)) (snd pf)) f.

Lemma load_file_wf name c d : content_wf c -> load_file V coerce name c = Ok d -> wfd d.
Proof.
  unfold load_file. intros Hc. destruct (text_eqb name pyproject); destruct c as [i|t]; try discriminate.
  - apply load_toml_wf. exact Hc.
  - apply records_wf.
Qed.

Lemma assoc_path_in {A} p (l : list (path * A)) a : assoc_path p l = Some a -> In (p, a) l.
Proof.
  induction l as [|[q b] l IH]; cbn [assoc_path]; [discriminate|]. destruct (path_eqb p q) eqn:E.
  - apply path_eqb_eq in E; subst. intros H; inversion H. left; reflexivity.
  - intros H. right. apply IH. exact H.
Qed.
Lemma assoc_text_in {A} k (l : list (text * A)) a : assoc_text k l = Some a -> In (k, a) l.
Proof.
  induction l as [|[q b] l IH]; cbn [assoc_text]; [discriminate|]. destruct (text_eqb_spec k q) as [->|].
  - intros H; inversion H. left; reflexivity.
  - intros H. right. apply IH. exact H.
Qed.

Lemma fs_wf_file f p files name c : fs_wf f -> assoc_path p f = Some files -> assoc_text name files = Some c -> content_wf c.
Proof.
  intros Hf H1 H2. apply assoc_path_in in H1. apply assoc_text_in in H2. unfold fs_wf in Hf. rewrite Forall_forall in Hf.
  specialize (Hf _ H1). cbn [snd] in Hf. rewrite Forall_forall in Hf. exact (Hf _ H2).
Qed.

Notation load_at := (load_config_at_path V coerce).
Notation dir_layers := (dir_layers V coerce).
Notation okind := (okind V).

(* d is a well-formed dict that shows, at every path, what the last of the layers ls that has anything there shows *)
Definition shows (d : dict) (ls : list (res dict)) : Prop :=
  wfd d /\ forall p, kind_at p d = last_some (map (okind p) ls).

Lemma shows_nil : shows [] [].
Proof. split; [apply wfd_nil | apply kind_at_empty]. Qed.

Lemma shows_one d : wfd d -> shows d [Ok d].
Proof. intros H. split; [exact H | reflexivity]. Qed.

Lemma combine_shows ds lss R : Forall2 shows ds lss -> nested_combine ds = Ok R -> shows R (concat lss).
Proof.
  intros HF HR. assert (Hw : Forall wfd ds) by (clear HR; induction HF as [|d ls ds lss [Hd _] _ IH]; constructor; assumption).
  split; [exact (nested_combine_wf ds R Hw HR)|]. intros p. rewrite (combine_rightmost ds R p Hw HR). clear HR Hw.
  induction HF as [|d ls ds lss [_ Hd] _ IH]; [reflexivity|].
  cbn [map concat]. rewrite map_app, last_some_app, last_some_cons, IH, Hd. reflexivity.
Qed.

(* one round of load_config_at_path's loop over filename_options, and the layers it contributes *)
Definition at_file (files : list (text * fcontent V)) (configs : dict) (fname : text) : res dict :=
  match assoc_text fname files with
  | Some c => load_config_file V coerce fname c configs
  | None => Ok configs
  end.
Notation at_fold files := (fold_left (fun acc fname => do configs <- acc; at_file files configs fname)).
Definition layer_files (files : list (text * fcontent V)) (names : list text) : list (res dict) :=
  flat_map (fun fname => match assoc_text fname files with
                         | Some c => [load_file V coerce fname c]
                         | None => []
                         end) names.

Lemma load_at_unfold f q :
  load_at f q = match assoc_path (dir_of V f q) f with
                | None => Err ERuntime
                | Some files => at_fold files filename_options (@Ok dict [])
                end.
Proof. reflexivity. Qed.

Lemma dir_layers_unfold f q :
  dir_layers f q = match assoc_path (dir_of V f q) f with
                   | None => [Err ERuntime]
                   | Some files => layer_files files filename_options
                   end.
Proof. reflexivity. Qed.

Lemma at_fold_shows f p files : fs_wf f -> assoc_path p f = Some files -> forall names acc ls d,
  shows acc ls -> at_fold files names (Ok acc) = Ok d -> shows d (ls ++ layer_files files names).
Proof.
  intros Hf Hp. induction names as [|fname names IH]; intros acc ls d Hacc H.
  - inversion H; subst. rewrite app_nil_r. exact Hacc.
  - apply fold_res_cons in H as (acc' & Ha & H). unfold layer_files. cbn [flat_map].
    unfold at_file in Ha. destruct (assoc_text fname files) as [c|] eqn:Ec; [|inversion Ha; subst; exact (IH _ _ _ Hacc H)].
    apply bind_ok in Ha as (raw & El & Ha). rewrite El.
    rewrite app_assoc. apply (IH acc' _ d); [|exact H].
    pose proof (load_file_wf _ _ _ (fs_wf_file f p files fname c Hf Hp Ec) El) as Hraw.
    apply (combine_shows [acc; raw] [ls; [Ok raw]]); [|exact Ha].
    constructor; [exact Hacc|]. constructor; [exact (shows_one raw Hraw) | constructor].
Qed.

Lemma at_path_shows f pth d : fs_wf f -> load_at f pth = Ok d -> shows d (dir_layers f pth).
Proof.
  rewrite load_at_unfold, dir_layers_unfold. intros Hf H. destruct (assoc_path (dir_of V f pth) f) as [files|] eqn:E; [|discriminate].
  exact (at_fold_shows f _ files Hf E filename_options [] [] d shows_nil H).
Qed.

Lemma sequence_at_shows f : fs_wf f -> forall paths ds, sequence (map (load_at f) paths) = Ok ds ->
  Forall2 shows ds (map (dir_layers f) paths).
Proof.
  intros Hf. induction paths as [|q paths IH]; intros ds H; cbn [map sequence] in H.
  - inversion H. constructor.
  - apply bind_ok in H as (d & Eq & H). apply bind_ok in H as (t & Et & [= <-]).
    constructor; [exact (at_path_shows f q d Hf Eq) | exact (IH t Et)].
Qed.

Lemma load_extra_shows f extra ec : fs_wf f -> load_extra V coerce f extra = Ok ec -> shows ec (extra_layers V coerce f extra).
Proof.
  intros Hf H. destruct extra as [x|]; [|inversion H; exact shows_nil].
  unfold extra_layers. rewrite H. apply shows_one.
  unfold load_extra in H. destruct (is_dir V f x); [discriminate|].
  destruct (file_at V f (removelast x) (last x [])) as [c|] eqn:Ef; [|discriminate].
  unfold file_at in Ef. destruct (assoc_path (removelast x) f) as [files|] eqn:Ea; [|discriminate].
  eapply load_file_wf; [|exact H]. eapply fs_wf_file; eassumption.
Qed.

Lemma up_to_shows f e pth extra ign configs : fs_wf f ->
  load_config_up_to_path V coerce f e pth extra ign = Ok configs -> shows configs (file_layers V coerce f e pth extra ign).
Proof.
  intros Hf H. unfold file_layers.
  destruct ign.
  - cbn [bind] in H. apply bind_ok in H as (ec & Ee & H). cbn [app] in H.
    rewrite <- (app_nil_r (extra_layers _ _ _ _)).
    apply (combine_shows [[]; []; ec] [[]; []; _]); [|exact H].
    do 2 (constructor; [exact shows_nil|]). constructor; [exact (load_extra_shows f extra ec Hf Ee) | constructor].
  - apply bind_ok in H as (ua & Eua & H). apply bind_ok in H as (u & Eu & H).
    apply bind_ok in H as (parents & Ep & H). apply bind_ok in H as (stack & Es & H). apply bind_ok in H as (ec & Ee & H).
    assert (Hua : shows ua (let d := user_config_dir V f e in if is_dir V f d then dir_layers f d else [])).
    { unfold load_user_appdir_config in Eua. cbn zeta in *. destruct (is_dir V f (user_config_dir V f e)).
      - exact (at_path_shows f _ ua Hf Eua).
      - inversion Eua. exact shows_nil. }
    pose proof (Forall2_app (Forall2_cons _ _ Hua (Forall2_cons _ _ (at_path_shows f _ u Hf Eu) (Forall2_nil _)))
                 (Forall2_app (sequence_at_shows f Hf _ _ Ep)
                    (Forall2_app (sequence_at_shows f Hf _ _ Es)
                       (Forall2_cons _ _ (load_extra_shows f extra ec Hf Ee) (Forall2_nil _))))) as HF.
    apply (combine_shows _ _ _ HF) in H. rewrite !concat_app, <- !flat_map_concat_map in H. cbn [concat app] in H.
    rewrite <- !app_assoc, app_nil_r in H. rewrite <- !app_assoc. exact H.
Qed.

Section Final.
Variable is_none : V -> bool.
Notation file_config := (file_config V coerce is_none).
Notation inline_config := (inline_config V coerce is_none).
Notation run := (run V coerce is_none).
Notation run_c := (run_c V coerce is_none).
Notation file_config_c := (file_config_c V coerce is_none).

Lemma single_wf k (x : cfg) : wf x -> wfd [(k, x)].
Proof. exact (wfd_dset k x [] wfd_nil). Qed.

Lemma core_wrap_wf ov : wfd ov -> wfd (core_wrap V ov).
Proof. intros H. destruct ov as [|a l]; [apply wfd_nil|]. apply single_wf. exact H. Qed.

Lemma configs_or_empty_wf c : wfd c -> wfd (configs_or_empty V c).
Proof. intros H. destruct c as [|a l]; [|exact H]. apply single_wf. apply wfd_nil. Qed.

Lemma precedence_inline f e rt sf E :
  fs_wf f -> wfd (r_defaults V rt) -> wfd (r_overrides V rt) ->
  inline_config f e rt sf = Ok E ->
  exists configs,
    load_config_up_to_path V coerce f e (fst sf) (r_extra V rt) (r_ignore_local V rt) = Ok configs /\
    forall p, p <> [] -> kind_at p E = spec_kind V coerce f e rt sf (is_nil configs) p.
Proof.
  intros Hf Hd Ho H. apply bind_ok in H as (c & Hc & H).
  apply bind_ok in Hc as (configs & Eu & Hc). apply bind_ok in Hc as (c0 & Ei & Hc). apply bind_ok in Hc as ([] & _ & [= <-]).
  exists configs. split; [exact Eu|]. intros p Hp.
  rewrite (process_raw_kind (snd sf) c0 E p Hp H). unfold spec_kind. f_equal.
  destruct (up_to_shows f e (fst sf) (r_extra V rt) (r_ignore_local V rt) configs Hf Eu) as [Hwc Hkc].
  assert (Hw3 : Forall wfd [r_defaults V rt; configs_or_empty V configs; core_wrap V (r_overrides V rt)]).
  { constructor; [exact Hd|]. constructor; [apply configs_or_empty_wf; exact Hwc|].
    constructor; [apply core_wrap_wf; exact Ho | constructor]. }
  rewrite (combine_rightmost _ c0 p Hw3 Ei). cbn [map]. rewrite !last_some_app.
  destruct configs as [|c cs]; [reflexivity|]. cbn [is_nil configs_or_empty]. rewrite Hkc. reflexivity.
Qed.

Lemma file_config_inline f e rt sf E : file_config f e rt sf = Ok E -> inline_config f e rt sf = Ok E.
Proof.
  intros H. apply bind_ok in H as (c & -> & H). apply bind_ok in H as ([] & _ & H). exact H.
Qed.

Theorem precedence f e rt sf E :
  fs_wf f -> wfd (r_defaults V rt) -> wfd (r_overrides V rt) ->
  file_config f e rt sf = Ok E ->
  exists configs,
    load_config_up_to_path V coerce f e (fst sf) (r_extra V rt) (r_ignore_local V rt) = Ok configs /\
    forall p, p <> [] -> kind_at p E = spec_kind V coerce f e rt sf (is_nil configs) p.
Proof. intros Hf Hd Ho H. apply precedence_inline; try assumption. apply file_config_inline. exact H. Qed.

Lemma verify_dialect_ok c :
  verify_dialect V is_none c = if dialect_ok V is_none (kind_at [core; dialect_key] c) then Ok tt else Err ERuntime.
Proof.
  unfold verify_dialect, Config.kind_at. destruct (lookup [core; dialect_key] c) as [[v|l]|]; cbn [option_map Config.kind_of dialect_ok];
    [destruct (is_none v)|..]; reflexivity.
Qed.

Lemma is_dir_agree f f' q : assoc_path q f = assoc_path q f' -> is_dir V f q = is_dir V f' q.
Proof. unfold is_dir. intros ->. reflexivity. Qed.

Lemma load_at_agree f f' q : assoc_path q f = assoc_path q f' ->
  assoc_path (dir_of V f q) f = assoc_path (dir_of V f q) f' -> load_at f q = load_at f' q.
Proof.
  intros H1 H2. unfold load_config_at_path. unfold dir_of in H2. rewrite <- (is_dir_agree f f' q H1), H2. reflexivity.
Qed.

Lemma iter_agree f f' inner outer : assoc_path inner f = assoc_path inner f' ->
  iter_intermediate_paths V f inner outer = iter_intermediate_paths V f' inner outer.
Proof. intros H. unfold iter_intermediate_paths. rewrite (is_dir_agree f f' inner H). reflexivity. Qed.

Lemma In_removelast {A} (x : A) l : In x (removelast l) -> In x l.
Proof.
  induction l as [|a l IH]; [intros []|]. cbn [removelast]. destruct l as [|b l]; [intros []|].
  intros [H|H]; [left; exact H | right; apply IH; exact H].
Qed.
Lemma In_tl {A} (x : A) l : In x (tl l) -> In x l.
Proof. destruct l; [intros [] | intros H; right; exact H]. Qed.

(* the loader reads the file system only through assoc_path at the relevant paths *)
Lemma up_to_agree f f' e pth extra ign :
  (forall q, In q (relevant V f e extra pth) -> assoc_path q f = assoc_path q f') ->
  load_config_up_to_path V coerce f e pth extra ign = load_config_up_to_path V coerce f' e pth extra ign.
Proof.
  intros Hag. unfold relevant in Hag.
  set (I1 := iter_intermediate_paths V f pth (e_home e)) in *.
  set (I2 := iter_intermediate_paths V f pth (e_cwd e)) in *.
  set (ups := e_home e :: user_config_dir V f e :: I1 ++ I2) in *.
  assert (Hcross : assoc_path (cross_dir e) f = assoc_path (cross_dir e) f') by (apply Hag; left; reflexivity).
  assert (Hpth : assoc_path pth f = assoc_path pth f') by (apply Hag; right; left; reflexivity).
  assert (Hups : forall q, In q ups -> load_at f q = load_at f' q /\ is_dir V f q = is_dir V f' q).
  { intros q Hq. assert (H1 : assoc_path q f = assoc_path q f') by (apply Hag; cbn [app In]; rewrite !in_app_iff; auto).
    split; [|apply is_dir_agree; exact H1]. apply load_at_agree; [exact H1|].
    apply Hag. cbn [app In]. rewrite !in_app_iff. auto 7 using in_map. }
  assert (Hextra : load_extra V coerce f extra = load_extra V coerce f' extra).
  { unfold load_extra, file_at. destruct extra as [x|]; [|reflexivity].
    rewrite (is_dir_agree f f' x), (Hag (removelast x)); [reflexivity | | apply Hag]; cbn [app In]; rewrite !in_app_iff; cbn [In]; auto 7. }
  unfold load_config_up_to_path, load_user_appdir_config. fold I1 I2.
  rewrite <- (iter_agree f f' pth (e_home e) Hpth), <- (iter_agree f f' pth (e_cwd e) Hpth), <- Hextra.
  replace (user_config_dir V f' e) with (user_config_dir V f e)
    by (unfold user_config_dir; rewrite (is_dir_agree f f' _ Hcross); reflexivity).
  destruct (Hups (user_config_dir V f e)) as [<- <-]; [right; left; reflexivity|].
  destruct (Hups (e_home e)) as [<- _]; [left; reflexivity|].
  rewrite (map_ext_in (load_at f) (load_at f') (removelast (tl I1))), (map_ext_in (load_at f) (load_at f') I2); [reflexivity | |];
    intros q Hq; apply Hups; right; right; apply in_or_app; [right; exact Hq | left; apply In_tl, In_removelast, Hq].
Qed.

(* ISOLATION: the config of a file is determined by the directories it is read from (and its own text) *)
Theorem isolation f f' e rt sf :
  (forall q, In q (relevant V f e (r_extra V rt) (fst sf)) -> assoc_path q f = assoc_path q f') ->
  file_config f e rt sf = file_config f' e rt sf.
Proof.
  intros Hag. unfold Config.file_config, Config.inline_config, from_path. rewrite (up_to_agree f f' e _ _ _ Hag). reflexivity.
Qed.

Lemma run_app f e rt l1 l2 : run f e rt (l1 ++ l2) = run f e rt l1 ++ run f e rt l2.
Proof. apply map_app. Qed.

(* the functools caches are transparent: threading them through a run changes no result *)
Definition cache_ok (f : fsys V) (c : caches V) : Prop :=
  (forall q d, assoc_path q (c_file V c) = Some d ->
     exists content, file_at V f (removelast q) (last q []) = Some content /\ load_file V coerce (last q []) content = Ok d)
  /\ (forall q d, assoc_path q (c_dir V c) = Some d -> load_at f q = Ok d).

Lemma cache_ok_empty f : cache_ok f (mkCaches [] []).
Proof. split; intros q d H; discriminate. Qed.

(* m, run from any cache state consistent with f, returns what the cache-free r returns and leaves a consistent state *)
Definition refines {A} (f : fsys V) (m : M V A) (r : res A) : Prop :=
  forall c, cache_ok f c -> exists c', m c = (r, c') /\ cache_ok f c'.

Lemma refines_lift {A} f (r : res A) : refines f (mlift V r) r.
Proof. intros c Hc. exists c. split; [reflexivity | exact Hc]. Qed.

Lemma refines_bind {A B} f (m : M V A) r (k : A -> M V B) k' :
  refines f m r -> (forall a, refines f (k a) (k' a)) -> refines f (mbind V m k) (do a <- r; k' a).
Proof.
  intros Hm Hk c Hc. destruct (Hm c Hc) as (c1 & H1 & Hc1). unfold mbind. rewrite H1.
  destruct r as [a|e]; [exact (Hk a c1 Hc1) | exists c1; split; [reflexivity | exact Hc1]].
Qed.

Lemma refines_msequence {A B} f (g : B -> M V A) g' : (forall q, refines f (g q) (g' q)) ->
  forall l, refines f (msequence V (map g l)) (sequence (map g' l)).
Proof.
  intros Hg. induction l as [|q l IH]; [exact (refines_lift f (Ok []))|]. cbn [map msequence sequence].
  apply refines_bind; [apply Hg|]. intros a. apply refines_bind; [exact IH|]. intros t. exact (refines_lift f (Ok (a :: t))).
Qed.

Lemma assoc_path_cons_inv {A} q p (a : A) l b : assoc_path q ((p, a) :: l) = Some b -> (q = p /\ a = b) \/ assoc_path q l = Some b.
Proof.
  cbn [assoc_path]. destruct (path_eqb q p) eqn:E; [|intros H; right; exact H].
  apply path_eqb_eq in E. intros H; inversion H; subst. left; split; reflexivity.
Qed.

Lemma load_file_c_refines f p name content : file_at V f p name = Some content ->
  refines f (load_file_c V coerce p name content) (load_file V coerce name content).
Proof.
  intros Hf c [Hc1 Hc2]. unfold load_file_c. destruct (assoc_path (p ++ [name]) (c_file V c)) as [d|] eqn:E.
  - destruct (Hc1 _ _ E) as (content' & H1 & H2). rewrite removelast_last, last_last in H1. rewrite last_last in H2.
    rewrite Hf in H1. inversion H1. exists c. rewrite H2. split; [reflexivity | split; assumption].
  - destruct (load_file V coerce name content) as [d|e0] eqn:El.
    + eexists. split; [reflexivity|]. split; cbn [c_file c_dir]; [|exact Hc2].
      intros q d' Hq. apply assoc_path_cons_inv in Hq as [[-> ->]|Hq]; [|apply Hc1; exact Hq].
      exists content. rewrite removelast_last, last_last. split; assumption.
    + exists c. split; [reflexivity | split; assumption].
Qed.

Lemma at_path_files_c_refines f p files : assoc_path p f = Some files -> forall names configs,
  refines f (at_path_files_c V coerce p files names configs) (at_fold files names (Ok configs)).
Proof.
  intros Hp. induction names as [|fname names IH]; intros configs; [exact (refines_lift f (Ok configs))|].
  cbn [at_path_files_c fold_left bind]. unfold at_file at 2. destruct (assoc_text fname files) as [content|] eqn:Ea; [|apply IH].
  unfold load_config_file. rewrite fold_res_bind, bind_assoc.
  apply refines_bind; [apply load_file_c_refines; unfold file_at; rewrite Hp; exact Ea|]. intros raw.
  apply refines_bind; [apply refines_lift | exact IH].
Qed.

Lemma load_at_c_refines f q : refines f (load_config_at_path_c V coerce f q) (load_at f q).
Proof.
  intros c Hc. unfold load_config_at_path_c. destruct (assoc_path q (c_dir V c)) as [d|] eqn:E.
  - rewrite (proj2 Hc _ _ E). exists c. split; [reflexivity | exact Hc].
  - rewrite (load_at_unfold). unfold dir_of. set (p := if is_dir V f q then q else removelast q).
    destruct (assoc_path p f) as [files|] eqn:Ep; [|exists c; split; [reflexivity | exact Hc]].
    destruct (at_path_files_c_refines f p files Ep filename_options [] c Hc) as (c1 & H1 & Hc1). rewrite H1.
    destruct (at_fold files filename_options (@Ok dict [])) as [d|e0] eqn:Ed; [|exists c1; split; [reflexivity | exact Hc1]].
    eexists. split; [reflexivity|]. split; cbn [c_file c_dir]; [exact (proj1 Hc1)|].
    intros q' d' Hq. apply assoc_path_cons_inv in Hq as [[-> ->]|Hq]; [|exact (proj2 Hc1 _ _ Hq)].
    rewrite (load_at_unfold). unfold dir_of. fold p. rewrite Ep. exact Ed.
Qed.

Lemma load_extra_c_refines f extra : refines f (load_extra_c V coerce f extra) (load_extra V coerce f extra).
Proof.
  unfold load_extra_c, load_extra. destruct extra as [x|]; [|apply refines_lift].
  destruct (is_dir V f x); [apply refines_lift|].
  destruct (file_at V f (removelast x) (last x [])) as [content|] eqn:Ef; [|apply refines_lift].
  apply load_file_c_refines. exact Ef.
Qed.

Lemma up_to_c_refines f e pth extra ign :
  refines f (load_config_up_to_path_c V coerce f e pth extra ign) (load_config_up_to_path V coerce f e pth extra ign).
Proof.
  unfold load_config_up_to_path_c, load_config_up_to_path, load_user_appdir_config.
  apply refines_bind; [destruct ign; [apply refines_lift|] | intros ua].
  { cbn zeta. destruct (is_dir V f (user_config_dir V f e)); [apply load_at_c_refines | apply refines_lift]. }
  apply refines_bind; [destruct ign; [apply refines_lift | apply load_at_c_refines] | intros u].
  apply refines_bind; [destruct ign; [apply refines_lift | apply refines_msequence, load_at_c_refines] | intros parents].
  apply refines_bind; [destruct ign; [apply refines_lift | apply refines_msequence, load_at_c_refines] | intros stack].
  apply refines_bind; [apply load_extra_c_refines | intros ec; apply refines_lift].
Qed.

Lemma file_config_c_refines f e rt sf : refines f (file_config_c f e rt sf) (file_config f e rt sf).
Proof.
  replace (file_config f e rt sf) with
    (do configs <- load_config_up_to_path V coerce f e (fst sf) (r_extra V rt) (r_ignore_local V rt);
     do c <- fluff_init V (r_defaults V rt) configs (r_overrides V rt);
     do _ <- dialect_check V is_none false c;
     do c' <- process_raw_file_for_config V coerce c (snd sf);
     do _ <- verify_dialect V is_none c';
     Ok c').
  - apply refines_bind; [apply up_to_c_refines | intros configs; apply refines_lift].
  - unfold Config.file_config, Config.inline_config, from_path.
    destruct (load_config_up_to_path V coerce f e _ _ _) as [configs|]; [cbn [bind] | reflexivity].
    destruct (fluff_init V _ configs _) as [c0|]; [cbn [bind] | reflexivity].
    destruct (dialect_check V is_none false c0) as [[]|]; reflexivity.
Qed.

Theorem cache_transparent f e rt : forall files c, cache_ok f c ->
  exists c', run_c f e rt files c = (run f e rt files, c') /\ cache_ok f c'.
Proof.
  induction files as [|sf files IH]; intros c Hc.
  - exists c. split; [reflexivity | exact Hc].
  - cbn [Config.run_c]. destruct (file_config_c_refines f e rt sf c Hc) as (c1 & H1 & Hc1). rewrite H1.
    destruct (IH c1 Hc1) as (c2 & H2 & Hc2). rewrite H2. exists c2. split; [reflexivity | exact Hc2].
Qed.

End Final.
End WithCoerce.

Lemma nodupb_sound l : nodupb l = true -> NoDup l.
Proof. apply (list_nodupb_NoDup text_eqb text_eqb_eq l). Qed.

Lemma wfb_sound : forall c, wfb V c = true -> wf c.
Proof.
  induction c as [v|l IH] using cfg_ind2; intros H; [constructor|]. cbn [wfb] in H. apply andb_true_iff in H as [H1 H2].
  constructor; [apply nodupb_sound; exact H1|]. clear H1. induction IH as [|[k x] l IHx _ IHl]; [constructor|].
  apply andb_true_iff in H2 as [Hx Hl]. constructor; [exact (IHx Hx) | exact (IHl Hl)].
Qed.

Lemma wfdb_sound d : wfdb V d = true -> wfd d.
Proof. apply wfb_sound. Qed.

Lemma fs_wfb_sound f : fs_wfb V f = true -> fs_wf f.
Proof.
  unfold fs_wfb, fs_wf. rewrite forallb_forall, Forall_forall. intros H pf Hpf. specialize (H pf Hpf).
  rewrite forallb_forall in H. rewrite Forall_forall. intros nc Hnc. specialize (H nc Hnc).
  destruct (snd nc); [exact I | apply wfdb_sound; exact H].
Qed.
End WithValues.
