(* Lemmas about Model/Discovery.v.  [spells cwd b p]: every dirname that os.walk produces below the path string p has the
   absolute path "/b1/../bn/names"; this is all that the walk uses of the way a path is spelled, and it holds of every non-empty
   p whose absolute form starts with a single slash and does not denote "/", for b = parts_of cwd p.  The walk of the model,
   which threads the mutated inner_ignore_specs list through the tree, equals on every spelled path an ideal walk that hands
   what is ignored down the tree, and the ideal walk yields exactly the files that [selected] describes declaratively; so
   which files are selected depends on the spelling only through b. *)
From SF Require Import Base.Prelude Base.Sort Model.Discovery.
From Coq Require Import Lia.

Definition noslash (n : text) : bool := forallb (fun c => negb (N.eqb c slash)) n.
(* a file or directory name *)
Definition name_ok (n : text) : bool :=
  nonempty n && noslash n && negb (text_eqb n dot_t) && negb (text_eqb n dotdot_t).
Definition names_ok (l : list text) : Prop := Forall (fun n => name_ok n = true) l.

(* "/a/b/c" for [a;b;c] *)
Definition slashcat (l : list text) : text := flat_map (fun c => slash :: c) l.

Lemma name_ok_parts n : name_ok n = true ->
  n <> [] /\ noslash n = true /\ n <> dot_t /\ n <> dotdot_t.
Proof.
  intros H. repeat (apply andb_true_iff in H as [H ?]).
  repeat split; try assumption.
  - destruct n; discriminate.
  - intros ->. vm_compute in H1. discriminate.
  - intros ->. vm_compute in H0. discriminate.
Qed.

Lemma isabs_name n : name_ok n = true -> isabs n = false.
Proof.
  intros H. apply name_ok_parts in H. destruct H as [Hne [Hns _]]. destruct n as [|x n]; [contradiction|].
  cbn [noslash forallb] in Hns. apply andb_true_iff in Hns as [Hx _]. apply negb_true_iff in Hx. exact Hx.
Qed.

Lemma names_ok_app a b : names_ok (a ++ b) <-> names_ok a /\ names_ok b.
Proof. apply Forall_app. Qed.

Lemma names_ok_snoc cs n : names_ok cs -> name_ok n = true -> names_ok (cs ++ [n]).
Proof. intros H1 H2. apply names_ok_app. split; [exact H1|constructor; [exact H2|constructor]]. Qed.

Lemma slashcat_app a b : slashcat (a ++ b) = slashcat a ++ slashcat b.
Proof. apply flat_map_app. Qed.

Lemma slashcat_cons a l : slashcat (a :: l) = slash :: a ++ slashcat l.
Proof. reflexivity. Qed.

Lemma slashcat_snoc l n : slashcat (l ++ [n]) = slashcat l ++ slash :: n.
Proof. rewrite slashcat_app. cbn [slashcat flat_map]. rewrite app_nil_r. reflexivity. Qed.

Lemma app_ne_l {A} (a l : list A) : a <> [] -> a ++ l <> [].
Proof. destruct a; [contradiction|discriminate]. Qed.

Lemma split_on_nonnil s : split_on s <> [].
Proof. destruct s as [|c r]; cbn [split_on]; [discriminate|]. destruct (N.eqb c slash); [discriminate|]. destruct (split_on r); discriminate. Qed.

Lemma split_on_app x y : split_on (x ++ slash :: y) = split_on x ++ split_on y.
Proof.
  induction x as [|c x IH]; cbn [app split_on].
  - rewrite N.eqb_refl. reflexivity.
  - rewrite IH. destruct (N.eqb c slash); [reflexivity|].
    destruct (split_on x) eqn:E; [destruct (split_on_nonnil _ E)|reflexivity].
Qed.

Lemma split_on_noslash a : noslash a = true -> split_on a = [a].
Proof.
  induction a as [|c a IH]; intros H; [reflexivity|].
  cbn [noslash forallb] in H. apply andb_true_iff in H as [Hc Ha].
  cbn [split_on]. apply negb_true_iff in Hc. rewrite Hc. rewrite (IH Ha). reflexivity.
Qed.

Definition noslashes (l : list text) : Prop := Forall (fun n => noslash n = true) l.

Lemma names_noslashes l : names_ok l -> noslashes l.
Proof. apply Forall_impl. intros n H. apply name_ok_parts in H. tauto. Qed.

Lemma split_on_app_slashcat x l : noslashes l -> split_on (x ++ slashcat l) = split_on x ++ l.
Proof.
  induction l as [|n l IH] using rev_ind; intros H; [rewrite !app_nil_r; reflexivity|].
  apply Forall_app in H as [Hl Hn]. inversion Hn as [|? ? Hn' _].
  rewrite slashcat_snoc, app_assoc, split_on_app, (IH Hl), (split_on_noslash n Hn'). apply app_assoc_reverse.
Qed.

Lemma split_on_slashcat l : noslashes l -> split_on (slashcat l) = [] :: l.
Proof. apply (split_on_app_slashcat []). Qed.

Lemma split_on_all_noslash s : noslashes (split_on s).
Proof.
  induction s as [|c s IH]; [repeat constructor|]. cbn [split_on]. destruct (N.eqb c slash) eqn:E.
  - constructor; [reflexivity|exact IH].
  - destruct (split_on s) as [|h t]; [repeat constructor; cbn [noslash forallb]; rewrite E; reflexivity|].
    inversion IH. constructor; [|assumption]. cbn [noslash forallb]. rewrite E. assumption.
Qed.

(* the components that normpath's loop keeps when there is no ".." *)
Definition pure_comp (c : text) : bool := nonempty c && negb (text_eqb c dot_t).

Lemma norm_fold_nodotdot i l : forall acc, ~ In dotdot_t l ->
  fold_left (norm_step i) l acc = rev (filter pure_comp l) ++ acc.
Proof.
  induction l as [|c l IH]; intros acc H; [reflexivity|].
  assert (Hc : c <> dotdot_t) by (intros ->; apply H; left; reflexivity).
  assert (Hl : ~ In dotdot_t l) by (intros X; apply H; right; exact X).
  change (fold_left (norm_step i) (c :: l) acc) with (fold_left (norm_step i) l (norm_step i acc c)).
  change (filter pure_comp (c :: l)) with (if pure_comp c then c :: filter pure_comp l else filter pure_comp l).
  rewrite (IH _ Hl). unfold norm_step, pure_comp, nonempty.
  destruct (is_empty c) eqn:E1; cbn [negb andb orb]; [reflexivity|].
  destruct (text_eqb c dot_t) eqn:E2; cbn [negb andb orb]; [reflexivity|].
  rewrite (text_eqb_neq _ _ Hc). cbn [negb orb rev]. rewrite <- app_assoc. reflexivity.
Qed.

Lemma filter_names (f : text -> bool) l : (forall n, name_ok n = true -> f n = true) -> names_ok l -> filter f l = l.
Proof.
  intros Hf H. apply filter_all_true. revert H. apply Forall_impl, Hf.
Qed.

Lemma pure_comp_name n : name_ok n = true -> pure_comp n = true.
Proof.
  intros H. destruct (name_ok_parts n H) as [Hne [_ [Hd _]]]. unfold pure_comp, nonempty. destruct n; [contradiction|].
  cbn [is_empty negb andb]. rewrite (text_eqb_neq _ _ Hd). reflexivity.
Qed.

Lemma nonempty_name n : name_ok n = true -> nonempty n = true.
Proof. intros H. apply pure_comp_name in H. apply andb_true_iff in H. tauto. Qed.

Lemma names_nodotdot l : names_ok l -> ~ In dotdot_t l.
Proof. unfold names_ok. rewrite Forall_forall. intros H Hin. apply H in Hin. discriminate. Qed.

Lemma norm_comps_app_names i l T : names_ok T -> norm_comps i (l ++ T) = norm_comps i l ++ T.
Proof.
  intros HT. unfold norm_comps. rewrite fold_left_app, (norm_fold_nodotdot i T _ (names_nodotdot T HT)).
  rewrite (filter_names _ T pure_comp_name HT), rev_app_distr, rev_involutive. reflexivity.
Qed.

(* a trailing slash leaves an empty last component, which normpath drops *)
Lemma norm_comps_app_empty i l : norm_comps i (l ++ [[]]) = norm_comps i l.
Proof. unfold norm_comps. rewrite fold_left_app. reflexivity. Qed.

(* with one leading slash, normalisation keeps a stack of proper names *)
Lemma norm_step1_ok acc c : names_ok acc -> noslash c = true -> names_ok (norm_step 1 acc c).
Proof.
  intros Hacc Hc. unfold norm_step. destruct (is_empty c || text_eqb c dot_t) eqn:E1; [exact Hacc|].
  apply orb_false_iff in E1 as [Hne Hd]. cbn [Nat.eqb andb orb].
  destruct (text_eqb c dotdot_t) eqn:Hdd.
  - cbn [negb orb]. destruct acc as [|top r]; [constructor|].
    inversion Hacc as [|? ? Htop Hr]. apply name_ok_parts in Htop. destruct Htop as [_ [_ [_ Htd]]].
    rewrite (text_eqb_neq _ _ Htd). exact Hr.
  - cbn [negb orb]. constructor; [|exact Hacc]. unfold name_ok, nonempty. rewrite Hne, Hc, Hd, Hdd. reflexivity.
Qed.

Lemma norm_comps1_ok s : names_ok (norm_comps 1 (split_on s)).
Proof.
  apply Forall_rev, fold_left_ind; [constructor|]. intros acc c Hc Hacc. apply norm_step1_ok; [exact Hacc|].
  exact (proj1 (Forall_forall _ _) (split_on_all_noslash s) c Hc).
Qed.

Lemma intercalate_slashcat l : l <> [] -> slash :: intercalate l = slashcat l.
Proof.
  induction l as [|a l IH]; intros H; [contradiction|].
  destruct l as [|b l'].
  - cbn [intercalate slashcat flat_map]. rewrite app_nil_r. reflexivity.
  - change (intercalate (a :: b :: l')) with (a ++ slash :: intercalate (b :: l')).
    rewrite IH by discriminate. reflexivity.
Qed.

Lemma initial_slashes_slashcat a l r : name_ok a = true -> initial_slashes (slashcat (a :: l) ++ r) = 1.
Proof.
  intros H. assert (Hx := isabs_name a H). destruct a as [|x a]; [discriminate H|]. cbn [isabs] in Hx.
  rewrite slashcat_cons. cbn [app]. unfold initial_slashes. rewrite N.eqb_refl, Hx.
  match goal with |- context [match ?X with _ => _ end] => destruct X end; reflexivity.
Qed.

Lemma is_empty_app_cons (a : text) x b : is_empty (a ++ x :: b) = false.
Proof. destruct a; reflexivity. Qed.

Lemma is_empty_slashcat a l r : is_empty (slashcat (a :: l) ++ r) = false.
Proof. reflexivity. Qed.

Lemma filter_split_slashcat l : names_ok l -> filter nonempty (split_on (slashcat l)) = l.
Proof. intros H. rewrite (split_on_slashcat _ (names_noslashes _ H)). apply (filter_names _ _ nonempty_name H). Qed.

(* [x for x in ("/" + "/".join(l)).split("/") if x] *)
Lemma filter_split_names l : names_ok l -> filter nonempty (split_on (slash :: intercalate l)) = l.
Proof.
  intros H. destruct l as [|a l]; [reflexivity|]. rewrite intercalate_slashcat by discriminate.
  apply filter_split_slashcat, H.
Qed.

Lemma startswith_one c s : startswith [c] s = match s with x :: _ => N.eqb c x | [] => false end.
Proof. destruct s as [|x s]; [reflexivity|]. cbn [startswith]. apply andb_true_r. Qed.

Lemma endswith_app_last c s x : endswith [c] (s ++ [x]) = N.eqb c x.
Proof. unfold endswith. rewrite rev_app_distr. cbn [rev app]. rewrite startswith_one. reflexivity. Qed.

Lemma endswith_app c s x : x <> [] -> endswith [c] (s ++ x) = endswith [c] x.
Proof. intros H. destruct (exists_last H) as [x0 [y ->]]. rewrite app_assoc, !endswith_app_last. reflexivity. Qed.

Lemma noslash_app a b : noslash (a ++ b) = noslash a && noslash b.
Proof. apply forallb_app. Qed.

(* what posixpath.join puts between x and a relative path *)
Definition sep (x : text) : text := if is_empty x || endswith [slash] x then [] else [slash].

Lemma join_rel x y : isabs y = false -> join x y = x ++ sep x ++ y.
Proof. intros H. unfold join, sep. rewrite H. destruct (is_empty x || endswith [slash] x); reflexivity. Qed.

Lemma sep_app s x : x <> [] -> sep (s ++ x) = sep x.
Proof. intros H. unfold sep. rewrite (endswith_app _ s x H). destruct s, x; try contradiction; reflexivity. Qed.

Lemma sep_name y n : name_ok n = true -> sep (y ++ n) = [slash].
Proof.
  intros H. apply name_ok_parts in H. destruct H as [Hne [Hns _]]. rewrite (sep_app y n Hne). unfold sep.
  destruct (exists_last Hne) as [n0 [x ->]]. rewrite endswith_app_last, is_empty_app_cons.
  rewrite noslash_app in Hns. apply andb_true_iff in Hns as [_ Hx]. cbn [noslash forallb] in Hx.
  rewrite andb_true_r, N.eqb_sym in Hx. apply negb_true_iff in Hx. rewrite Hx. reflexivity.
Qed.

(* os.walk's dirname for the directory reached by the names cs below the walked path p *)
Definition dn (p : text) (cs : list text) : text := fold_left join cs p.

Lemma dn_snoc p cs n : dn p (cs ++ [n]) = join (dn p cs) n.
Proof. unfold dn. rewrite fold_left_app. reflexivity. Qed.

(* the dirnames as strings, for every path string x: after the first name every join puts a slash *)
Lemma dn_cons x n T : names_ok (n :: T) -> dn x (n :: T) = x ++ sep x ++ n ++ slashcat T.
Proof.
  revert x n. induction T as [|m T IH]; intros x n H; inversion H as [|? ? Hn HT].
  - cbn [dn fold_left]. rewrite (join_rel x n (isabs_name n Hn)), app_nil_r. reflexivity.
  - change (dn x (n :: m :: T)) with (dn (join x n) (m :: T)).
    rewrite (IH _ m HT), (join_rel x n (isabs_name n Hn)), (app_assoc x), (sep_name _ n Hn), slashcat_cons, <- !app_assoc. reflexivity.
Qed.

Lemma dn_cons_neq x n T : names_ok (n :: T) -> dn x (n :: T) <> x.
Proof.
  intros H E. rewrite (dn_cons x n T H) in E. apply (f_equal (@length _)) in E. rewrite !app_length in E.
  inversion H as [|? ? Hn _]. destruct n; [discriminate Hn|]. cbn [length] in E. lia.
Qed.

Lemma dn_inj x T T' : names_ok T -> names_ok T' -> dn x T = dn x T' -> T = T'.
Proof.
  assert (Hs : forall n T, names_ok (n :: T) -> split_on (n ++ slashcat T) = n :: T).
  { intros n T0 H. inversion H as [|? ? Hn HT]; subst. apply name_ok_parts in Hn.
    rewrite (split_on_app_slashcat _ _ (names_noslashes _ HT)), split_on_noslash by tauto. reflexivity. }
  intros [|n T0 Hn HT] [|n' T0' Hn' HT'] E; [reflexivity| | |].
  - symmetry in E. apply dn_cons_neq in E; [destruct E|constructor; assumption].
  - apply dn_cons_neq in E; [destruct E|constructor; assumption].
  - rewrite !dn_cons in E by (constructor; assumption). apply app_inv_head, app_inv_head, (f_equal split_on) in E.
    rewrite !Hs in E by (constructor; assumption). exact E.
Qed.

Lemma dn_head x T : names_ok T -> exists y, dn x T = x ++ y.
Proof. intros [|n T' Hn HT]; [exists []; symmetry; apply app_nil_r|eexists; apply dn_cons; constructor; assumption]. Qed.

(* x + sep(x) always ends with a slash, and normpath does not see the difference *)
Lemma sep_slash x : x <> [] -> exists x', x ++ sep x = x' ++ [slash] /\ forall i, norm_comps i (split_on x') = norm_comps i (split_on x).
Proof.
  intros Hx. unfold sep. destruct x as [|c x]; [contradiction|]. cbn [is_empty orb].
  destruct (endswith [slash] (c :: x)) eqn:E; [|exists (c :: x); split; reflexivity].
  destruct (@exists_last _ (c :: x)) as [x' [y Ex]]; [discriminate|]. rewrite Ex in *.
  rewrite endswith_app_last in E. apply N.eqb_eq in E. subst y. exists x'. split; [apply app_nil_r|].
  intros i. rewrite split_on_app. symmetry. apply norm_comps_app_empty.
Qed.

Lemma norm_comps_dn i x T : x <> [] -> names_ok T -> norm_comps i (split_on (dn x T)) = norm_comps i (split_on x) ++ T.
Proof.
  intros Hx HT. destruct HT as [|n T' Hn HT]; [symmetry; apply app_nil_r|].
  assert (HnT : names_ok (n :: T')) by (constructor; assumption).
  destruct (sep_slash x Hx) as [x' [E <-]].
  rewrite (dn_cons x n T' HnT), app_assoc, E, <- app_assoc. change ([slash] ++ n ++ slashcat T') with (slashcat (n :: T')).
  rewrite (split_on_app_slashcat _ _ (names_noslashes _ HnT)). apply norm_comps_app_names. exact HnT.
Qed.

(* x starts with a single slash: "/name..." *)
Definition rooted (x : text) : Prop := exists l r, l <> [] /\ names_ok l /\ x = slashcat l ++ r.

Lemma normpath_dn x T : rooted x -> names_ok T ->
  normpath (dn x T) = slash :: intercalate (norm_comps 1 (split_on x) ++ T).
Proof.
  intros [[|a l] [r [Hne [Hl ->]]]] HT; [contradiction|]. unfold normpath. rewrite norm_comps_dn by (assumption || discriminate).
  destruct (dn_head (slashcat (a :: l) ++ r) T HT) as [y ->]. rewrite <- app_assoc.
  rewrite initial_slashes_slashcat by (inversion Hl; assumption). reflexivity.
Qed.

(* the argument of normpath in abspath *)
Definition full (cwd p : text) : text := if isabs p then p else join cwd p.

Lemma full_dn cwd p T : p <> [] -> names_ok T -> full cwd (dn p T) = dn (full cwd p) T.
Proof.
  intros Hp HT. unfold full. destruct (dn_head p T HT) as [y Ey].
  replace (isabs (dn p T)) with (isabs p) by (rewrite Ey; destruct p; [contradiction|reflexivity]).
  destruct (isabs p) eqn:Ea; [reflexivity|].
  destruct HT as [|n T' Hn HT]; [reflexivity|].
  assert (HnT : names_ok (n :: T')) by (constructor; assumption).
  assert (Ea' : isabs (p ++ sep p ++ n ++ slashcat T') = false) by (destruct p; [contradiction|exact Ea]).
  rewrite !(dn_cons _ n T' HnT), (join_rel cwd _ Ea'), (join_rel cwd p Ea).
  replace (sep (cwd ++ sep cwd ++ p)) with (sep p) by (rewrite app_assoc; symmetry; apply sep_app; exact Hp).
  rewrite <- !app_assoc. reflexivity.
Qed.

Lemma abspath_dn cwd p T : p <> [] -> rooted (full cwd p) -> names_ok T ->
  abspath cwd (dn p T) = slash :: intercalate (norm_comps 1 (split_on (full cwd p)) ++ T).
Proof.
  intros Hp Hr HT. change (abspath cwd (dn p T)) with (normpath (full cwd (dn p T))).
  rewrite (full_dn cwd p T Hp HT). apply normpath_dn; assumption.
Qed.

Lemma parts_of_norm cwd p : p <> [] -> rooted (full cwd p) -> parts_of cwd p = norm_comps 1 (split_on (full cwd p)).
Proof.
  intros Hp Hr. unfold parts_of. change p with (dn p []) at 1. rewrite (abspath_dn cwd p [] Hp Hr (Forall_nil _)), app_nil_r.
  apply filter_split_names, norm_comps1_ok.
Qed.

Definition spells (cwd : text) (b : list text) (p : text) : Prop :=
  b <> [] /\ names_ok b /\ forall T, names_ok T -> abspath cwd (dn p T) = slashcat (b ++ T).

(* The spellings: every path string whose absolute form starts with a single slash, provided it does not denote "/". *)
Theorem spells_norm cwd p b : p <> [] -> rooted (full cwd p) -> norm_comps 1 (split_on (full cwd p)) = b -> b <> [] ->
  spells cwd b p.
Proof.
  intros Hp Hr <- Hb. split; [exact Hb|]. split; [apply norm_comps1_ok|].
  intros T HT. rewrite (abspath_dn cwd p T Hp Hr HT). apply intercalate_slashcat, app_ne_l, Hb.
Qed.

Corollary spells_parts cwd p : p <> [] -> rooted (full cwd p) -> parts_of cwd p <> [] -> spells cwd (parts_of cwd p) p.
Proof. intros Hp Hr. apply (spells_norm cwd p _ Hp Hr). symmetry. apply (parts_of_norm cwd p Hp Hr). Qed.

(* the spelled path: an absolute normal path, possibly with a trailing slash *)
Definition abs_spelling (ps : list text) (p : text) : Prop := p = slashcat ps \/ p = slashcat ps ++ [slash].

Lemma abs_spelling_abs ps p : ps <> [] -> abs_spelling ps p -> p <> [] /\ isabs p = true.
Proof. intros Hne Hp. destruct ps; [contradiction|]. destruct Hp as [-> | ->]; split; (discriminate || reflexivity). Qed.

Lemma abs_spelling_rooted ps p : ps <> [] -> names_ok ps -> abs_spelling ps p -> rooted p.
Proof. intros Hne Hok [-> | ->]; [exists ps, []; rewrite app_nil_r|exists ps, [slash]]; auto. Qed.

Lemma abs_spelling_norm ps p : names_ok ps -> abs_spelling ps p -> norm_comps 1 (split_on p) = ps.
Proof.
  intros Hok Hp.
  assert (E : norm_comps 1 (split_on (slashcat ps)) = ps).
  { rewrite (split_on_slashcat _ (names_noslashes _ Hok)). apply (norm_comps_app_names 1 [[]] _ Hok). }
  destruct Hp as [-> | ->]; [|rewrite split_on_app, norm_comps_app_empty]; exact E.
Qed.

Lemma spells_abs cwd ps p : ps <> [] -> names_ok ps -> abs_spelling ps p -> spells cwd ps p.
Proof.
  intros Hne Hok Hp. destruct (abs_spelling_abs ps p Hne Hp) as [Hp0 Ha].
  apply spells_norm; unfold full; rewrite ?Ha; [exact Hp0| | |exact Hne].
  - exact (abs_spelling_rooted ps p Hne Hok Hp).
  - exact (abs_spelling_norm ps p Hok Hp).
Qed.

Lemma spells_slashcat cwd b p : spells cwd b p -> spells cwd b (slashcat b).
Proof. intros [Hne [Hok _]]. exact (spells_abs cwd b _ Hne Hok (or_introl eq_refl)). Qed.

Lemma sep_slashcat l : l <> [] -> names_ok l -> sep (slashcat l) = [slash].
Proof.
  intros Hne Hok. destruct (exists_last Hne) as [l0 [n ->]]. apply names_ok_app in Hok as [_ Hn]. inversion Hn.
  rewrite slashcat_snoc. change (slash :: n) with ([slash] ++ n). rewrite app_assoc. apply sep_name. assumption.
Qed.

Lemma full_rel cw p : cw <> [] -> names_ok cw -> isabs p = false -> full (slashcat cw) p = slashcat cw ++ slash :: p.
Proof. intros Hne Hok Hp. unfold full. rewrite Hp, (join_rel _ p Hp), (sep_slashcat cw Hne Hok). reflexivity. Qed.

(* relative spellings: p is any non-empty string that does not start with '/', the working directory is "/c1/../cn" *)
Lemma rooted_rel cw p : cw <> [] -> names_ok cw -> isabs p = false -> rooted (full (slashcat cw) p).
Proof. intros Hne Hok Hrel. exists cw, (slash :: p). auto using full_rel. Qed.

Lemma spells_rel cwd cw p : cw <> [] -> names_ok cw -> cwd = slashcat cw -> p <> [] -> isabs p = false ->
  parts_of cwd p <> [] -> spells cwd (parts_of cwd p) p.
Proof. intros Hne Hok -> Hp Hrel. apply (spells_parts _ p Hp (rooted_rel cw p Hne Hok Hrel)). Qed.

Lemma startswith_spec pre : forall s, startswith pre s = true <-> exists r, s = pre ++ r.
Proof.
  induction pre as [|a pre IH]; intros s; cbn [startswith].
  - split; [intros _; exists s; reflexivity|reflexivity].
  - destruct s as [|b s]; [split; [discriminate|intros [r E]; discriminate]|].
    rewrite andb_true_iff, N.eqb_eq, IH. split.
    + intros [-> [r ->]]. exists r. reflexivity.
    + intros [r E]. injection E as -> ->. split; [reflexivity|exists r; reflexivity].
Qed.

Lemma startswith_app_both a x y : startswith (a ++ x) (a ++ y) = startswith x y.
Proof. induction a as [|c a IH]; [reflexivity|]. cbn [app startswith]. rewrite N.eqb_refl. exact IH. Qed.

Lemma startswith_nil_r x : startswith x [] = is_empty x.
Proof. destruct x; reflexivity. Qed.

Definition prefix (q cs : list text) : Prop := exists r, cs = q ++ r.

Lemma prefix_refl q : prefix q q.
Proof. exists []. symmetry. apply app_nil_r. Qed.

Lemma prefix_app_r q cs r : prefix q cs -> prefix q (cs ++ r).
Proof. intros [x ->]. exists (x ++ r). symmetry. apply app_assoc. Qed.

Lemma common_len_app a b : common_len a (a ++ b) = length a.
Proof. induction a as [|x a IH]; [destruct b; reflexivity|]. cbn [app common_len length]. rewrite text_eqb_refl, IH. reflexivity. Qed.

Lemma parts_of_dn cwd b p T : spells cwd b p -> names_ok T -> parts_of cwd (dn p T) = b ++ T.
Proof.
  intros [_ [Hb HA]] HT. unfold parts_of. rewrite (HA T HT).
  apply filter_split_slashcat, names_ok_app. split; assumption.
Qed.

Lemma parts_of_spelled cwd b p : spells cwd b p -> parts_of cwd p = b.
Proof. intros Sp. rewrite <- (app_nil_r b). exact (parts_of_dn cwd b p [] Sp (Forall_nil _)). Qed.

Lemma parts_of_slashcat cwd l : l <> [] -> names_ok l -> parts_of cwd (slashcat l) = l.
Proof. intros Hne Hok. exact (parts_of_spelled cwd l _ (spells_abs cwd l _ Hne Hok (or_introl eq_refl))). Qed.

Section Spelled.
  Variables (cwd : text) (b : list text) (p : text).
  Hypothesis Sp : spells cwd b p.

  (* the relevance test of the walk (absolute paths on both sides): an inner spec found at q stays relevant exactly in q and below *)
  Lemma keep_spelled q cs f s : names_ok q -> names_ok cs ->
    keep_inner cwd (dn p cs) (dn p q, f, s) = true <-> prefix q cs.
  Proof.
    intros Hq Hcs. destruct Sp as [_ [Hb HA]]. unfold keep_inner, sr_dir. cbn [fst].
    rewrite orb_true_iff, text_eqb_eq, startswith_spec, (HA q Hq), (HA cs Hcs). split.
    - intros [E|[r E]].
      + apply (dn_inj p cs q Hcs Hq) in E. subst. apply prefix_refl.
      + exists (split_on r). apply (f_equal split_on) in E. rewrite <- app_assoc in E. rewrite (split_on_app _ r) in E.
        rewrite !split_on_slashcat in E by (apply names_noslashes, names_ok_app; split; assumption).
        injection E as E. rewrite <- app_assoc in E. apply app_inv_head in E. exact E.
    - intros [[|n r] ->]; [left; rewrite app_nil_r; reflexivity|right].
      exists (n ++ slashcat r). rewrite !slashcat_app, <- !app_assoc. reflexivity.
  Qed.

  (* seen from the directory q below the walked path, a file/dir with names T below the walked path (q a prefix of T) has
     the relative path T minus q *)
  Lemma relparts_spelled q T : names_ok q -> names_ok T -> prefix q T ->
    relparts cwd (abspath cwd (dn p T)) (dn p q) = skipn (length q) T.
  Proof.
    intros Hq HT [r ->]. destruct Sp as [Hne [Hb HA]]. unfold relparts. rewrite (parts_of_dn cwd b p q Sp Hq), (HA _ HT).
    rewrite parts_of_slashcat by (try apply app_ne_l; try apply names_ok_app; auto).
    rewrite (app_assoc b q r), common_len_app, Nat.sub_diag, !skipn_length_app. reflexivity.
  Qed.
End Spelled.

Section AbsSpelling.
  Variable ps : list text.
  Variable p : text.
  Hypothesis ps_ne : ps <> [].
  Hypothesis ps_ok : names_ok ps.
  Hypothesis p_abs : abs_spelling ps p.

  Lemma join_dn cs n : names_ok cs -> name_ok n = true -> join (dn p cs) n = slashcat (ps ++ cs ++ [n]).
  Proof.
    intros Hcs Hn. rewrite <- dn_snoc. assert (H : names_ok (cs ++ [n])) by (apply names_ok_snoc; assumption).
    destruct (cs ++ [n]) as [|c T] eqn:E; [destruct cs; discriminate|]. rewrite (dn_cons p c T H), slashcat_app, slashcat_cons.
    destruct p_abs as [-> | ->].
    - rewrite (sep_slashcat ps ps_ne ps_ok). reflexivity.
    - unfold sep. rewrite endswith_app_last, N.eqb_refl, orb_true_r, <- app_assoc. reflexivity.
  Qed.
End AbsSpelling.

Lemma parts_eqb_eq a b : parts_eqb a b = true <-> a = b.
Proof. exact (list_eqb_eq text_eqb text_eqb_eq a b). Qed.

Section RelSpelling.
  Variable p : text.
  Hypothesis p_ne : p <> [].
  Hypothesis p_rel : isabs p = false.

  Lemma dn_rel_inj q cs : names_ok q -> names_ok cs -> text_eqb (dn p cs) (dn p q) = parts_eqb q cs.
  Proof using p_ne p_rel. (* the statement is about a non-empty relative p, the section's subject; dn_inj is the fact for every p *)
    intros Hq Hcs. destruct (parts_eqb q cs) eqn:E.
    - apply parts_eqb_eq in E. subst. apply text_eqb_refl.
    - apply text_eqb_neq. intros Heq. apply (dn_inj p cs q Hcs Hq) in Heq. subst.
      rewrite (proj2 (parts_eqb_eq q q) eq_refl) in E. discriminate.
  Qed.
End RelSpelling.

(* a real directory tree: proper names everywhere, no two sub-directories of one directory with the same name *)
Fixpoint wf_dir (d : dir) : Prop :=
  match d with
  | Dir files loads subs =>
      names_ok files /\ names_ok (map fst subs) /\ NoDup (map fst subs) /\
      (fix all (l : list (text * dir)) : Prop := match l with [] => True | x :: r => wf_dir (snd x) /\ all r end) subs
  end.

Lemma wf_dir_ind (P : dir -> Prop) :
  (forall files loads subs, names_ok files -> names_ok (map fst subs) -> NoDup (map fst subs) ->
     Forall (fun x => P (snd x)) subs -> P (Dir files loads subs)) ->
  forall d, wf_dir d -> P d.
Proof.
  intros H. fix IH 1. intros [files loads subs] [Hf [Hn [Hnd Hall]]]. apply (H files loads subs Hf Hn Hnd). clear Hf Hn Hnd.
  induction subs as [|x r IHr]; [constructor|]. destruct Hall as [Hx Hr]. constructor; [exact (IH (snd x) Hx)|exact (IHr Hr)].
Qed.

Lemma assoc_in {B} n (l : list (text * B)) v : assoc n l = Some v -> In (n, v) l.
Proof.
  induction l as [|[k w] l IH]; [discriminate|]. cbn [assoc]. destruct (text_eqb n k) eqn:E.
  - intros H. injection H as ->. apply text_eqb_eq in E. subst. left. reflexivity.
  - intros H. right. apply IH. exact H.
Qed.

Lemma assoc_nodup {B} n (l : list (text * B)) v : NoDup (map fst l) -> In (n, v) l -> assoc n l = Some v.
Proof.
  induction l as [|[k w] l IH]; intros Hnd Hin; [destruct Hin|]. cbn [map fst] in Hnd. inversion Hnd as [|? ? Hk Hnd'].
  cbn [assoc]. destruct Hin as [E|Hin].
  - injection E as -> ->. rewrite text_eqb_refl. reflexivity.
  - destruct (text_eqb n k) eqn:E; [|apply IH; assumption].
    apply text_eqb_eq in E. subst. exfalso. apply Hk. apply in_map_iff. exists (k, v). split; [reflexivity|exact Hin].
Qed.

(* the directory reached by the names cs *)
Fixpoint dir_at (d : dir) (cs : list text) : option dir :=
  match cs with
  | [] => Some d
  | n :: r => match assoc n (d_subs d) with Some sd => dir_at sd r | None => None end
  end.

Section Loaded.
  Variable ignore_files : bool.

  (* the (ignore file name, spec) pairs loaded in a directory *)
  Definition loaded (d : dir) : list (text * nat) :=
    if ignore_files
    then flat_map (fun f => match assoc f (d_loads d) with Some (Some s) => [(f, s)] | _ => [] end)
                  (filter (fun f => mem_text f loader_names) (d_files d))
    else [].
End Loaded.

Section Selected.
  Variable matches : nat -> list text -> bool.
  Variable ignore_files : bool.
  Variable exts : list text.
  Variable outer_hit : list text -> bool.      (* do the specs from above match the file / dir/* with these names below the walked path *)

  Notation loaded' := (loaded ignore_files).

  (* the ignore specs loaded in the directory q below the walked path *)
  Definition specs_at (d : dir) (q : list text) : list (text * nat) :=
    match dir_at d q with Some dd => loaded' dd | None => [] end.

  (* [mode = true]: some ignore spec found in a directory between the walked path and the directory cs (both included) matches T,
     the path being taken relative to the directory of the spec.  [mode = false]: only the directory cs itself is considered. *)
  Definition inner_hit (mode : bool) (d : dir) (cs T : list text) : Prop :=
    exists k fs, k <= length cs /\ (mode = false -> k = length cs) /\ In fs (specs_at d (firstn k cs)) /\ matches (snd fs) (skipn k T) = true.

  Definition ignoredP (mode : bool) (d : dir) (cs T : list text) : Prop := outer_hit T = true \/ inner_hit mode d cs T.

  (* the file f of the directory cs is selected: right extension, not ignored, and no directory on the way down was pruned
     (a directory is pruned when "dir/*" is ignored, judged in its parent directory) *)
  Definition selected (mode : bool) (d : dir) (cs : list text) (f : text) : Prop :=
    exists dd, dir_at d cs = Some dd /\ In f (d_files dd) /\ match_file_extension f exts = true
               /\ ~ ignoredP mode d cs (cs ++ [f])
               /\ forall k, k < length cs -> ~ ignoredP mode d (firstn k cs) (firstn (S k) cs ++ [star_t]).
End Selected.

(* The ideal walk: what is ignored is handed down the tree.  [above T]: something above this directory matches the path T
   below it; [here] adds the specs loaded in the directory itself. *)
Section Ideal.
  Variable matches : nat -> list text -> bool.
  Variable ignore_files : bool.
  Variable exts : list text.

  Definition here (above : list text -> bool) (d : dir) (T : list text) : bool :=
    above T || existsb (fun fs => matches (snd fs) T) (loaded ignore_files d).

  Notation inner_hit' := (inner_hit matches ignore_files true).
  Notation ignoredP' a := (ignoredP matches ignore_files a true).
  Notation selected' a := (selected matches ignore_files exts a true).

  Lemma inner_hit_nil d T : inner_hit' d [] T <-> existsb (fun fs => matches (snd fs) T) (loaded ignore_files d) = true.
  Proof.
    rewrite existsb_exists. split.
    - intros [k [fs [Hk [_ [Hfs Hm]]]]]. assert (k = 0) by (cbn [length] in Hk; lia). subst k. exists fs. split; assumption.
    - intros [fs [Hfs Hm]]. exists 0, fs. auto.
  Qed.

  Lemma inner_hit_cons d n sd cs T : assoc n (d_subs d) = Some sd ->
    inner_hit' d (n :: cs) (n :: T) <-> inner_hit' d [] (n :: T) \/ inner_hit' sd cs T.
  Proof.
    intros Ha.
    assert (Hspec : forall k, specs_at ignore_files d (firstn (S k) (n :: cs)) = specs_at ignore_files sd (firstn k cs)).
    { intros k. unfold specs_at. cbn [firstn dir_at]. rewrite Ha. reflexivity. }
    split.
    - intros [[|k] [fs [Hk [_ [Hfs Hm]]]]]; [left; exists 0, fs; repeat split; auto|right].
      rewrite Hspec in Hfs. exists k, fs. cbn [length] in Hk. repeat split; [lia|discriminate|exact Hfs|exact Hm].
    - intros [[k [fs [Hk [_ [Hfs Hm]]]]]|[k [fs [Hk [_ [Hfs Hm]]]]]].
      + assert (k = 0) by (cbn [length] in Hk; lia). subst k. exists 0, fs. repeat split; [cbn [length]; lia|discriminate|exact Hfs|exact Hm].
      + exists (S k), fs. rewrite Hspec. cbn [length]. repeat split; [lia|discriminate|exact Hfs|exact Hm].
  Qed.

  Lemma ignoredP_nil a d T : ignoredP' a d [] T <-> here a d T = true.
  Proof. unfold ignoredP, here. rewrite inner_hit_nil, orb_true_iff. reflexivity. Qed.

  Lemma ignoredP_cons a d n sd cs T : assoc n (d_subs d) = Some sd ->
    ignoredP' a d (n :: cs) (n :: T) <-> ignoredP' (fun T => here a d (n :: T)) sd cs T.
  Proof.
    intros Ha. unfold ignoredP. rewrite (inner_hit_cons d n sd cs T Ha), <- or_assoc. fold (ignoredP' a d [] (n :: T)).
    rewrite ignoredP_nil. reflexivity.
  Qed.

  Lemma selected_nil a d f : selected' a d [] f <-> In f (d_files d) /\ match_file_extension f exts = true /\ here a d [f] = false.
  Proof.
    unfold selected. cbn [dir_at length app]. rewrite <- not_true_iff_false, <- ignoredP_nil. split.
    - intros [dd [E [Hf [He [Hn _]]]]]. injection E as <-. auto.
    - intros [Hf [He Hn]]. exists d. repeat split; auto. intros k Hk. lia.
  Qed.

  Lemma selected_cons a d n sd cs f : assoc n (d_subs d) = Some sd ->
    selected' a d (n :: cs) f <-> here a d [n; star_t] = false /\ selected' (fun T => here a d (n :: T)) sd cs f.
  Proof.
    intros Ha. unfold selected. cbn [dir_at length]. rewrite Ha, <- not_true_iff_false, <- ignoredP_nil. split.
    - intros [dd [E [Hf [He [Hn Hpr]]]]]. split; [apply (Hpr 0); lia|]. exists dd. repeat split; auto.
      + rewrite <- (ignoredP_cons a d n sd cs _ Ha). exact Hn.
      + intros k Hk. rewrite <- (ignoredP_cons a d n sd _ _ Ha). apply (Hpr (S k)). lia.
    - intros [H0 [dd [E [Hf [He [Hn Hpr]]]]]]. exists dd. repeat split; auto.
      + cbn [app]. rewrite (ignoredP_cons a d n sd cs _ Ha). exact Hn.
      + intros [|k] Hk; [exact H0|]. cbn [firstn app]. rewrite (ignoredP_cons a d n sd _ _ Ha). apply Hpr. lia.
  Qed.

  Variable out_name : list text -> text.       (* the yielded string for these names below the walked path *)

  Fixpoint ideal (above : list text -> bool) (d : dir) (cs : list text) {struct d} : list (list text * text) :=
    match d with
    | Dir files loads subs =>
        let ign := here above (Dir files loads subs) in
        flat_map (fun f => if match_file_extension f exts && negb (ign [f]) then [(cs ++ [f], out_name (cs ++ [f]))] else []) files
        ++ flat_map (fun x => if ign [fst x; star_t] then [] else ideal (fun T => ign (fst x :: T)) (snd x) (cs ++ [fst x])) subs
    end.

  Theorem ideal_spec : forall d, wf_dir d -> forall a cs0 rel out,
    In (rel, out) (ideal a d cs0) <->
    exists cs f, rel = cs0 ++ cs ++ [f] /\ out = out_name (cs0 ++ cs ++ [f]) /\ selected' a d cs f.
  Proof.
    induction 1 as [files loads subs _ _ Hnd IHsubs] using wf_dir_ind. intros a cs0 rel out. rewrite Forall_forall in IHsubs.
    cbn [ideal]. set (d := Dir files loads subs) in *.
    rewrite in_app_iff, !in_flat_map. split.
    - intros [[f [Hf Hin]]|[[n sd] [Hx Hin]]].
      + destruct (match_file_extension f exts) eqn:Eext; [|destruct Hin].
        destruct (here a d [f]) eqn:Ehit; [destruct Hin|]. destruct Hin as [E|[]]. injection E as <- <-.
        exists [], f. rewrite selected_nil. auto.
      + cbn [fst snd] in Hin. destruct (here a d [n; star_t]) eqn:Ehit; [destruct Hin|].
        apply (IHsubs _ Hx) in Hin. destruct Hin as [cs [f [-> [-> Hsel]]]].
        exists (n :: cs), f. rewrite <- app_assoc. repeat split.
        apply (selected_cons a d n sd cs f); [apply assoc_nodup; assumption|auto].
    - intros [[|n cs] [f [-> [-> Hsel]]]].
      + left. apply selected_nil in Hsel as [Hf [He Hn]]. exists f. split; [exact Hf|]. rewrite He, Hn. left. reflexivity.
      + right. destruct (assoc n subs) as [sd|] eqn:Ha; [|destruct Hsel as [dd [E _]]; cbn [dir_at d_subs d] in E; rewrite Ha in E; discriminate].
        destruct (proj1 (selected_cons a d n sd cs f Ha) Hsel) as [Hn Hsel']. assert (Hx := assoc_in n subs sd Ha).
        exists (n, sd). split; [exact Hx|]. cbn [fst snd]. rewrite Hn. apply (IHsubs _ Hx).
        exists cs, f. rewrite <- app_assoc. auto.
  Qed.
End Ideal.

Definition under (cs : list text) (n : text) (q : list text) : Prop := exists rest, q = cs ++ n :: rest.
Definition below (cs q : list text) : Prop := exists n, under cs n q.

Lemma under_not_prefix cs n n' q : under cs n q -> n <> n' -> ~ prefix q (cs ++ [n']).
Proof. intros [rest ->] Hn [r E]. rewrite <- app_assoc in E. apply app_inv_head in E. injection E as E _. congruence. Qed.

Lemma below_under cs n q : below (cs ++ [n]) q -> under cs n q.
Proof. intros [n' [rest ->]]. exists (n' :: rest). rewrite <- app_assoc. reflexivity. Qed.

(* an ignore spec found during the walk, with the names of its directory below the walked path *)
Definition arec := (list text * text * nat)%type.
Definition rq (r : arec) : list text := fst (fst r).

Definition found_in (P : list text -> Prop) (S : list arec) : Prop := Forall (fun r => names_ok (rq r) /\ P (rq r)) S.

Lemma found_in_impl (P Q : list text -> Prop) S : (forall q, P q -> Q q) -> found_in P S -> found_in Q S.
Proof. intros H. apply Forall_impl. intros r [H1 H2]. split; [exact H1|apply H; exact H2]. Qed.

Lemma found_in_app P S1 S2 : found_in P S1 -> found_in P S2 -> found_in P (S1 ++ S2).
Proof. intros H1 H2. apply Forall_app. split; assumption. Qed.

Section Names.
  Variable matches : nat -> list text -> bool.
  Variable cwd : text.
  Variable outer : list specrec.
  Variable ps : list text.
  Variable p : text.

  (* do the outer specs match the file / "dir/*" with the names T below the walked path *)
  Definition outer_hit_abs (T : list text) : bool := check_ignore_specs matches cwd (slashcat (ps ++ T)) outer.

  (* the yielded name: normalised, as relative as the walked path *)
  Definition oname (T : list text) : text := normpath (dn p T).
End Names.

Section Walk.
  Variable matches : nat -> list text -> bool.
  Variable cwd : text.
  Variable ignore_files : bool.
  Variable outer : list specrec.
  Variable exts : list text.
  Variable p : text.
  Variable b : list text.
  Variable on : list text -> text.   (* the name yielded for the file with these names below p: any closed form of normpath (dn p T), see N *)
  Hypothesis Sp : spells cwd b p.
  Hypothesis N : forall T, names_ok T -> normpath (dn p T) = on T.

  Notation oh := (outer_hit_abs matches cwd outer b).

  (* the IgnoreSpecRecord of the model for a record; the records loaded in the directory cs; what a list of records ignores *)
  Definition conc (r : arec) : specrec := (dn p (rq r), snd (fst r), snd r).
  Definition aload (cs : list text) (d : dir) : list arec := map (fun fs => (cs, fst fs, snd fs)) (loaded ignore_files d).
  Definition hit (S : list arec) (T : list text) : bool :=
    oh T || existsb (fun r => matches (snd r) (skipn (length (rq r)) T)) S.

  Notation walk' := (walk matches cwd ignore_files outer exts).
  Notation here' := (here matches ignore_files).
  Notation ideal' := (ideal matches ignore_files exts on).

  (* the records of S come from cs and its ancestors *)
  Definition stack_ok (S : list arec) (cs : list text) : Prop := found_in (fun q => prefix q cs) S.

  Lemma stack_ok_app_r S cs x : stack_ok S cs -> stack_ok S (cs ++ x).
  Proof. apply found_in_impl. intros q. apply prefix_app_r. Qed.

  Lemma found_in_aload (P : list text -> Prop) cs d : names_ok cs -> P cs -> found_in P (aload cs d).
  Proof. intros Hcs HP. apply Forall_map, Forall_forall. intros fs _. split; assumption. Qed.

  Lemma ignored_conc S T : stack_ok S T -> names_ok T ->
    ignored matches cwd outer (abspath cwd (dn p T)) (map conc S) = hit S T.
  Proof.
    intros HS HT. unfold ignored, hit, outer_hit_abs. rewrite <- (proj2 (proj2 Sp) T HT). f_equal.
    unfold check_ignore_specs. rewrite existsb_map. apply existsb_ext_in. intros r Hr.
    destruct (proj1 (Forall_forall _ _) HS r Hr) as [Hq Hp]. unfold conc, sr_spec, sr_dir. cbn [fst snd].
    rewrite (relparts_spelled cwd b p Sp (rq r) T Hq HT Hp). reflexivity.
  Qed.

  (* the specs loaded in the directory cs join the stack *)
  Lemma hit_push above S cs d T : (forall T, above T = hit S (cs ++ T)) ->
    hit (S ++ aload cs d) (cs ++ T) = here' above d T.
  Proof.
    intros Ha. unfold hit, here, aload. rewrite Ha, existsb_app, existsb_map, orb_assoc. f_equal.
    apply existsb_ext_in. intros fs _. cbn [fst snd]. rewrite skipn_length_app. reflexivity.
  Qed.

  Lemma walk_file_conc cs S f : names_ok cs -> name_ok f = true -> stack_ok S cs ->
    walk_file matches cwd outer exts (dn p cs) cs (map conc S) f
    = if match_file_extension f exts && negb (hit S (cs ++ [f])) then [(cs ++ [f], on (cs ++ [f]))] else [].
  Proof.
    intros Hcs Hf HS. unfold walk_file. rewrite <- dn_snoc.
    assert (HT : names_ok (cs ++ [f])) by (apply names_ok_snoc; assumption).
    rewrite <- (ignored_conc S _ (stack_ok_app_r S cs [f] HS) HT), (N _ HT). unfold ignored.
    destruct (match_file_extension f exts); [|reflexivity].
    destruct (check_ignore_specs matches cwd (abspath cwd (dn p (cs ++ [f]))) outer); [reflexivity|].
    destruct (check_ignore_specs matches cwd (abspath cwd (dn p (cs ++ [f]))) (map conc S)); reflexivity.
  Qed.

  Lemma pruned_conc cs S n : names_ok cs -> name_ok n = true -> stack_ok S cs ->
    subdir_pruned matches cwd outer (dn p cs) (map conc S) n = hit S (cs ++ [n; star_t]).
  Proof.
    intros Hcs Hn HS. unfold subdir_pruned. rewrite <- !dn_snoc. rewrite <- app_assoc. cbn [app].
    apply ignored_conc.
    - apply stack_ok_app_r. exact HS.
    - apply names_ok_app. split; [exact Hcs|]. constructor; [exact Hn|]. constructor; [reflexivity|constructor].
  Qed.

  Lemma load_specs_conc cs (d : dir) inner1 :
    (if ignore_files then inner1 ++ load_specs (dn p cs) (filter (fun f => mem_text f loader_names) (d_files d)) (d_loads d) else inner1)
    = inner1 ++ map conc (aload cs d).
  Proof.
    unfold aload, loaded. destruct ignore_files; [f_equal|symmetry; apply app_nil_r].
    rewrite map_map, map_flat_map. apply flat_map_ext_in. intros f _.
    destruct (assoc f (d_loads d)) as [[s|]|]; reflexivity.
  Qed.

  (* the sub-directory loop of [walk] as a function of its own *)
  Fixpoint walk_subs (dirname : text) (cs : list text) (inner2 : list specrec) (l : list (text * dir)) (st : list specrec)
    : list (list text * text) * list specrec :=
    match l with
    | [] => ([], st)
    | (n, sd) :: r =>
        if subdir_pruned matches cwd outer dirname inner2 n then walk_subs dirname cs inner2 r st
        else let '(o, st1) := walk' sd (join dirname n) (cs ++ [n]) st in
             let '(o2, st2) := walk_subs dirname cs inner2 r st1 in (o ++ o2, st2)
    end.

  Lemma walk_unfold files loads subs dirname cs inner :
    walk' (Dir files loads subs) dirname cs inner =
    let inner1 := filter (keep_inner cwd dirname) inner in
    let inner2 := if ignore_files then inner1 ++ load_specs dirname (filter (fun f => mem_text f loader_names) files) loads else inner1 in
    let below := walk_subs dirname cs inner2 subs inner2 in
    (flat_map (walk_file matches cwd outer exts dirname cs inner2) files ++ fst below, snd below).
  Proof.
    cbn [walk]. set (i2 := if ignore_files then _ else _).
    match goal with |- (_ ++ fst (?F subs i2), _) = _ => assert (E : forall l st, F l st = walk_subs dirname cs i2 l st) end.
    { induction l as [|[n sd] r IHl]; intros st; [reflexivity|].
      cbn [walk_subs]. destruct (subdir_pruned matches cwd outer dirname i2 n); [apply IHl|].
      destruct (walk' sd (join dirname n) (cs ++ [n]) st) as [o st1]. rewrite IHl. reflexivity. }
    rewrite E. reflexivity.
  Qed.

  (* on arrival in cs the relevance test keeps the records of cs's ancestors and drops all others *)
  Lemma filter_keep cs A J : names_ok cs -> stack_ok A cs -> found_in (fun q => ~ prefix q cs) J ->
    filter (keep_inner cwd (dn p cs)) (map conc (A ++ J)) = map conc A.
  Proof.
    intros Hcs HA HJ. rewrite filter_map_swap, filter_app.
    rewrite (filter_all_true _ A), (filter_all_false _ J); [rewrite app_nil_r; reflexivity| |].
    - revert HJ. apply Forall_impl. intros r [H1 H2]. apply not_true_is_false. intros H. apply H2.
      apply (keep_spelled cwd b p Sp (rq r) cs (snd (fst r)) (snd r) H1 Hcs). exact H.
    - revert HA. apply Forall_impl. intros r [H1 H2]. apply (keep_spelled cwd b p Sp (rq r) cs (snd (fst r)) (snd r) H1 Hcs). exact H2.
  Qed.

  (* The invariant of the mutated inner_ignore_specs list.  When [walk] arrives in the directory cs the list is A ++ J: A are the
     records of cs's ancestors (they ignore what [above] says, relative to cs), J is left over from directories walked before that
     are no ancestors of cs.  Then [walk] yields what the ideal walk yields, and leaves A, the records of cs, and records from
     directories strictly below cs. *)
  Definition walk_ok (d : dir) : Prop := forall cs A J above, names_ok cs -> stack_ok A cs ->
    found_in (fun q => ~ prefix q cs) J -> (forall T, above T = hit A (cs ++ T)) ->
    exists J', walk' d (dn p cs) cs (map conc (A ++ J)) = (ideal' above d cs, map conc ((A ++ aload cs d) ++ J'))
               /\ found_in (below cs) J'.

  (* The loop over the sub-directories l of cs that are still to be walked.  A2: the records of cs and its ancestors, which ignore
     what [ign] says, relative to cs; Jin: left over from the sub-directories already walked, none of which is in l, so that the
     relevance test drops Jin on arrival in any directory of l. *)
  Lemma walk_subs_ideal cs A2 ign : names_ok cs -> stack_ok A2 cs -> (forall T, hit A2 (cs ++ T) = ign T) ->
    forall l, Forall (fun x => walk_ok (snd x)) l -> names_ok (map fst l) -> NoDup (map fst l) ->
    forall Jin, found_in (fun q => exists n, under cs n q /\ ~ In n (map fst l)) Jin ->
    exists Jout, walk_subs (dn p cs) cs (map conc A2) l (map conc (A2 ++ Jin))
                 = (flat_map (fun x => if ign [fst x; star_t] then []
                                       else ideal' (fun T => ign (fst x :: T)) (snd x) (cs ++ [fst x])) l,
                    map conc (A2 ++ Jout))
                 /\ found_in (below cs) Jout.
  Proof.
    intros Hcs HA2 Hign. induction l as [|[n sd] l IHl]; intros Hok Hn Hnd Jin HJin.
    - exists Jin. split; [reflexivity|]. revert HJin. apply found_in_impl. intros q [n [H _]]. exists n. exact H.
    - inversion Hok as [|? ? Hsd Hok']. inversion Hn as [|? ? Hnn Hn']. inversion Hnd as [|? ? Hnotin Hnd']; subst.
      cbn [fst snd] in *. cbn [walk_subs flat_map fst snd].
      rewrite (pruned_conc cs A2 n Hcs Hnn HA2), Hign.
      destruct (ign [n; star_t]).
      + (* pruned: the state is untouched *)
        apply (IHl Hok' Hn' Hnd' Jin). revert HJin. apply found_in_impl. intros q [n' [H2 H3]].
        exists n'. split; [exact H2|]. intros Hin. apply H3. right. exact Hin.
      + rewrite <- dn_snoc.
        assert (Hcsn : names_ok (cs ++ [n])) by (apply names_ok_snoc; assumption).
        destruct (Hsd (cs ++ [n]) A2 Jin (fun T => ign (n :: T)) Hcsn) as [J1 [E1 HJ1]].
        * apply stack_ok_app_r. exact HA2.
        * revert HJin. apply found_in_impl. intros q [n' [H2 H3]].
          apply (under_not_prefix cs n' n _ H2). intros ->. apply H3. left. reflexivity.
        * intros T. rewrite <- app_assoc. symmetry. apply Hign.
        * rewrite E1. destruct (IHl Hok' Hn' Hnd' (aload (cs ++ [n]) sd ++ J1)) as [Jout [E2 HJout]].
          -- apply found_in_app.
             ++ apply found_in_aload; [exact Hcsn|]. exists n. split; [exists []; reflexivity|exact Hnotin].
             ++ revert HJ1. apply found_in_impl. intros q H2. exists n. split; [apply below_under; exact H2|exact Hnotin].
          -- rewrite <- app_assoc, E2. exists Jout. split; [reflexivity|exact HJout].
  Qed.

  Lemma walk_ideal : forall d, wf_dir d -> walk_ok d.
  Proof.
    induction 1 as [files loads subs Hfiles Hsubn Hnd Hsubs] using wf_dir_ind. intros cs A J above Hcs HA HJ Habove.
    rewrite walk_unfold. cbv zeta. rewrite (filter_keep cs A J Hcs HA HJ).
    assert (Eload := load_specs_conc cs (Dir files loads subs) (map conc A)). cbn [d_files d_loads] in Eload. rewrite Eload, <- map_app.
    cbn [ideal]. set (d := Dir files loads subs) in *. set (A2 := A ++ aload cs d).
    assert (HA2 : stack_ok A2 cs) by (apply found_in_app; [exact HA|apply found_in_aload; [exact Hcs|apply prefix_refl]]).
    assert (Hpush : forall T, hit A2 (cs ++ T) = here' above d T) by (intros T; apply hit_push; exact Habove).
    destruct (walk_subs_ideal cs A2 (here' above d) Hcs HA2 Hpush subs Hsubs Hsubn Hnd []) as [Jout [E HJout]]; [constructor|].
    rewrite app_nil_r in E. rewrite E. cbn [fst snd]. exists Jout. split; [|exact HJout]. f_equal. f_equal.
    apply flat_map_ext_in. intros f Hf. rewrite <- Hpush. apply walk_file_conc; [exact Hcs| |exact HA2].
    exact (proj1 (Forall_forall _ _) Hfiles f Hf).
  Qed.

  (* The walk of a spelled path yields exactly the selected files, under the names [on] (absolute names for an absolute path, see
     oname_abs; [oname p] in general). *)
  Theorem walk_spec d : wf_dir d -> forall rel out,
    In (rel, out) (iter_files_in_path matches cwd ignore_files outer exts d p) <->
    exists cs f, rel = cs ++ [f] /\ out = on (cs ++ [f]) /\ selected matches ignore_files exts oh true d cs f.
  Proof.
    intros Hwf rel out. unfold iter_files_in_path.
    destruct (walk_ideal d Hwf [] [] [] oh) as [J' [E _]];
      [constructor|constructor|constructor|intros T; symmetry; apply orb_false_r|].
    change (dn p []) with p in E. cbn [app map] in E. rewrite E. cbn [fst]. apply (ideal_spec matches ignore_files exts on d Hwf _ []).
  Qed.
End Walk.

(* the yielded names of an absolute path are absolute *)
Lemma oname_abs ps p : ps <> [] -> names_ok ps -> abs_spelling ps p ->
  forall T, names_ok T -> normpath (dn p T) = slashcat (ps ++ T).
Proof.
  intros Hne Hok Hp T HT. rewrite (normpath_dn p T (abs_spelling_rooted ps p Hne Hok Hp) HT), (abs_spelling_norm ps p Hok Hp).
  apply intercalate_slashcat, app_ne_l, Hne.
Qed.

(* which files a walk selects depends on the spelling p only through b *)
Lemma walk_ids matches cwd ignore_files outer exts b p : spells cwd b p -> forall d, wf_dir d -> forall rel,
  (exists out, In (rel, out) (iter_files_in_path matches cwd ignore_files outer exts d p)) <->
  exists cs f, rel = cs ++ [f] /\ selected matches ignore_files exts (outer_hit_abs matches cwd outer b) true d cs f.
Proof.
  intros Sp d Hwf rel.
  assert (W := walk_spec matches cwd ignore_files outer exts p b (oname p) Sp (fun T _ => eq_refl) d Hwf rel).
  split.
  - intros [out H]. apply W in H. destruct H as [cs [f [E [_ H]]]]. exists cs, f. auto.
  - intros [cs [f [E H]]]. eexists. apply W. exists cs, f. auto.
Qed.

(* two spellings of the same directory select the same files, given the same outer specs *)
Theorem walk_spelling_same matches cwd ignore_files outer exts b p p' : spells cwd b p -> spells cwd b p' ->
  forall d, wf_dir d -> forall rel,
    (exists out, In (rel, out) (iter_files_in_path matches cwd ignore_files outer exts d p))
    <-> (exists out, In (rel, out) (iter_files_in_path matches cwd ignore_files outer exts d p')).
Proof.
  intros Sp Sp' d Hwf rel.
  rewrite (walk_ids matches cwd ignore_files outer exts b p Sp d Hwf), (walk_ids matches cwd ignore_files outer exts b p' Sp' d Hwf).
  reflexivity.
Qed.

Lemma paths_from_path_spec matches cwd root b p d on ine ign wp exts :
  spells cwd b p -> (forall T, names_ok T -> normpath (dn p T) = on T) -> p <> [] -> lookup root b = NDir d -> wf_dir d ->
  exists l, paths_from_path_g matches cwd root p ine ign wp exts false = Ok l /\
    forall id out, In (id, out) l <->
      exists cs f, id = b ++ cs ++ [f] /\ out = on (cs ++ [f])
                   /\ selected matches ign (map lower exts)
                               (outer_hit_abs matches cwd (if ign then outer_specs cwd root p wp else []) b) true d cs f.
Proof.
  intros Sp N Hp Hl Hwf. unfold paths_from_path_g.
  assert (Eemp : is_empty p = false) by (destruct p; [contradiction|reflexivity]).
  rewrite (parts_of_spelled cwd b p Sp), Eemp, Hl. cbn [andb negb].
  eexists. split; [reflexivity|]. intros id out.
  rewrite (ssort_in out_leb (id, out)), in_map_iff. split.
  - intros [[rel o] [E Hin]]. cbn [fst snd] in E. injection E as <- <-.
    apply (walk_spec matches cwd ign _ (map lower exts) _ b on Sp N d Hwf) in Hin.
    destruct Hin as [cs [f [-> [-> Hsel]]]]. exists cs, f. auto.
  - intros [cs [f [-> [-> Hsel]]]]. exists (cs ++ [f], on (cs ++ [f])). split; [reflexivity|].
    apply (walk_spec matches cwd ign _ (map lower exts) _ b on Sp N d Hwf). exists cs, f. auto.
Qed.

(* the same for paths_from_path, if the two spellings find the same outer ignore files *)
Theorem paths_spelling_same matches cwd root b p p' d ine ign wp exts : spells cwd b p -> spells cwd b p' -> p <> [] -> p' <> [] ->
  outer_specs cwd root p wp = outer_specs cwd root p' wp -> lookup root b = NDir d -> wf_dir d ->
  exists l1 l2,
    paths_from_path_g matches cwd root p ine ign wp exts false = Ok l1 /\
    paths_from_path_g matches cwd root p' ine ign wp exts false = Ok l2 /\
    forall id, In id (map fst l1) <-> In id (map fst l2).
Proof.
  intros Sp Sp' Hp Hp' Eo Hl Hwf.
  destruct (paths_from_path_spec matches cwd root b p d (oname p) ine ign wp exts Sp (fun T _ => eq_refl) Hp Hl Hwf) as [l1 [E1 H1]].
  destruct (paths_from_path_spec matches cwd root b p' d (oname p') ine ign wp exts Sp' (fun T _ => eq_refl) Hp' Hl Hwf) as [l2 [E2 H2]].
  exists l1, l2. split; [exact E1|]. split; [exact E2|]. intros id. rewrite !in_map_iff. rewrite Eo in H1.
  split; intros [[i o] [<- Hin]]; [apply H1 in Hin|apply H2 in Hin]; destruct Hin as [cs [f [-> [_ Hsel]]]].
  - exists (b ++ cs ++ [f], oname p' (cs ++ [f])). split; [reflexivity|]. apply H2. exists cs, f. auto.
  - exists (b ++ cs ++ [f], oname p (cs ++ [f])). split; [reflexivity|]. apply H1. exists cs, f. auto.
Qed.

Lemma pure_parts_slashcat l : names_ok l -> pure_parts (slashcat l) = l.
Proof.
  intros H. unfold pure_parts. rewrite (split_on_slashcat _ (names_noslashes _ H)). apply (filter_names pure_comp l pure_comp_name H).
Qed.

Lemma norm_comps_nodotdot i l : ~ In dotdot_t l -> norm_comps i l = filter pure_comp l.
Proof. intros H. unfold norm_comps. rewrite (norm_fold_nodotdot i l [] H), app_nil_r. apply rev_involutive. Qed.

(* spellings without "..": the absolute components are those of cwd followed by the path's own, and iter_intermediate_paths
   finds the same outer ignore files as for the absolute spelling *)
Section NoDotDot.
  Variable cwd : text.
  Variable cw : list text.
  Variable p : text.
  Hypothesis cw_ne : cw <> [].
  Hypothesis cw_ok : names_ok cw.
  Hypothesis cwd_is : cwd = slashcat cw.
  Hypothesis p_ne : p <> [].
  Hypothesis p_rel : isabs p = false.
  Hypothesis p_nodd : ~ In dotdot_t (split_on p).

  Lemma parts_of_nodotdot : parts_of cwd p = cw ++ pure_parts p.
  Proof.
    rewrite cwd_is, (parts_of_norm _ p p_ne (rooted_rel cw p cw_ne cw_ok p_rel)), (full_rel cw p cw_ne cw_ok p_rel).
    rewrite split_on_app, (split_on_slashcat _ (names_noslashes _ cw_ok)), norm_comps_nodotdot.
    - rewrite filter_app. change (filter pure_comp ([] :: cw)) with (filter pure_comp cw).
      rewrite (filter_names _ cw pure_comp_name cw_ok). reflexivity.
    - intros H. apply in_app_iff in H as [[H|H]|H]; [discriminate|exact (names_nodotdot cw cw_ok H)|exact (p_nodd H)].
  Qed.

  Lemma spells_nodotdot : spells cwd (cw ++ pure_parts p) p.
  Proof.
    rewrite <- parts_of_nodotdot. apply (spells_rel cwd cw p cw_ne cw_ok cwd_is p_ne p_rel).
    rewrite parts_of_nodotdot. apply app_ne_l. exact cw_ne.
  Qed.

  Lemma outer_specs_nodotdot root wp :
    outer_specs cwd root p wp = outer_specs cwd root (slashcat (cw ++ pure_parts p)) wp.
  Proof.
    unfold outer_specs, iter_intermediate_paths, absolute_parts. rewrite p_rel.
    replace (isabs (slashcat (cw ++ pure_parts p))) with true by (destruct cw; [contradiction|reflexivity]).
    rewrite (pure_parts_slashcat _ (proj1 (proj2 spells_nodotdot))), cwd_is, (pure_parts_slashcat _ cw_ok). reflexivity.
  Qed.
End NoDotDot.
